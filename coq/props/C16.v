(* C16 — Serialising and deserialising an arena reproduces it exactly.
   Over the serde data-model view of the derived impls: for EVERY arena value whose stamps are
   i16 (what the Rust types guarantee; reachable or not), decoding the encoding gives the arena
   back and leaves the rest of the input.  Equal arenas have equal futures because [run] is a
   function of the arena. *)
From IT Require Import Serde World.
From IT.proofs Require Import SerdeProofs Reach.
From IT Require Import Props.

Theorem C16_roundtrip : forall (a : arena) (rest : list tok),
  types_ok a -> decode (encode a ++ rest) = Some (a, rest).
Proof. exact decode_encode. Qed.

Theorem C16_injective : forall a b, types_ok a -> types_ok b -> encode a = encode b -> a = b.
Proof. exact encode_injective. Qed.

(* the round-tripped copy continues to behave identically under any further calls *)
Theorem C16_continue : forall dbg (w : world) a' ops,
  types_ok (ar w) -> decode (encode (ar w)) = Some (a', []) ->
  run dbg ops (mkWorld a' (issued w) (removed w) (dropped w)) = run dbg ops w.
Proof.
  intros dbg w a' ops Ht Hd.
  pose proof (decode_encode (ar w) [] Ht) as H. rewrite app_nil_r in H.
  rewrite H in Hd. inversion Hd; subst a'. destruct w; reflexivity.
Qed.

(* every reachable arena (any mix of live, removed, recycled and retired slots) meets the typing
   side condition, so the round trip applies to it *)
Theorem C16_reachable_types_ok : forall ops, valid_hist false init ops -> types_ok (ar (reach ops)).
Proof. intros ops H. exact (wf_types_ok _ (reach_WF ops H)). Qed.
Theorem C16_roundtrip_reachable : forall ops rest, valid_hist false init ops ->
  decode (encode (ar (reach ops)) ++ rest) = Some (ar (reach ops), rest).
Proof. intros ops rest H. apply decode_encode. exact (wf_types_ok _ (reach_WF ops H)). Qed.

Print Assumptions C16_roundtrip.
Print Assumptions C16_reachable_types_ok.
Print Assumptions C16_roundtrip_reachable.
Print Assumptions C16_injective.
Print Assumptions C16_continue.
