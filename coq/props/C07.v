(* C07 — Allocation recycles removed slots and never hands out an occupied one.
   In every reachable world: the free list (the observable walk from first_free_slot) holds exactly
   the removed slots whose generation counter is not exhausted, each once; new_node returns the head
   of that list if there is one (count unchanged) and otherwise the index count (count + 1); the slot
   it returns held no live node, the id was never issued, the new node has no links, and EVERY other
   slot is identical; free_node appends the slot to the END of the free list exactly when it is
   reusable — so between two allocations returning a slot there is exactly one removal of it. *)
From IT Require Import Props.
From IT.proofs Require Import AllocProps Reach.
Open Scope Z_scope.

Theorem C07_free_list_exact : forall ops, valid_hist false init ops ->
  NoDup (free_list (ar (reach ops))) /\ (forall i, In i (free_list (ar (reach ops))) <-> reusable_slot (ar (reach ops)) i) /\
  ffree (ar (reach ops)) = hd_error (free_list (ar (reach ops))).
Proof. intros ops H. exact (wf_free_list _ (reach_WF ops H)). Qed.
Theorem C07_new_node : forall ops v, valid_hist false init ops -> let w := reach ops in
  exists a' x, new_node false v (ar w) = (a', Ok x) /\ ~ In x (issued w) /\ ~ live (ar w) x /\ live a' x /\
    node_at a' x (fresh_node (gen x) (Data v)) /\
    (forall j, j <> idx x -> nth_error (nodes a') j = nth_error (nodes (ar w)) j) /\
    match free_list (ar w) with
    | i :: rest => idx x = i /\ length (nodes a') = length (nodes (ar w)) /\ free_list a' = rest
    | [] => idx x = length (nodes (ar w)) /\ length (nodes a') = S (length (nodes (ar w))) /\ free_list a' = []
    end.
Proof. intros ops v H. exact (wf_new_node _ v (reach_WF ops H)). Qed.
Theorem C07_free_once : forall ops x, valid_hist false init ops -> let w := reach ops in live (ar w) x ->
  exists a' v, free_node false x (ar w) = (a', Ok (Some v)) /\ payload_of_id (ar w) x = Some v /\
    free_list a' = free_list (ar w) ++ (if gen x <? i16_max then [idx x] else []).
Proof. intros ops x H w Hx. exact (wf_free_node _ x (reach_WF ops H) Hx). Qed.

Print Assumptions C07_free_list_exact.
Print Assumptions C07_new_node.
Print Assumptions C07_free_once.
