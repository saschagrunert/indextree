(* AllocProofs.v — identity, generations and slot reuse (C06, C07, C08 building blocks):
   stamp arithmetic over the whole i16 range; structural operations never touch stamps, payloads or
   the free list ([shape_pres]); the allocation invariant [AllocOK] split into what it says of the
   stamps ([StampsOK]), of the data and of the free list, and new_node / free_node / write_payload /
   clear / free_all specified against it; payload accounting; last the invariant along whole API calls
   for any world with [AllocOK] and successful side calls ([AllocOK_step], [AllocOK_run]: no [Repr] needed;
   Assembly.v proves the invariant together with [Repr] from the call specifications instead).
   Release semantics (dbg = false) unless a statement says [forall dbg]. *)
From IT Require Import Alloc.
From IT.proofs Require Import ReprBase.
Require Import Lia Permutation.
Open Scope mon_scope.

Lemma arith16_in : forall dbg z, i16_min <= z <= i16_max -> arith16 dbg z = Ok z.
Proof.
  intros dbg z H. unfold arith16, in_i16.
  destruct (Z.leb_spec i16_min z); [|lia].
  destruct (Z.leb_spec z i16_max); [|lia]. reflexivity.
Qed.

(* the stamp a live slot gets when it is removed; [i16_min] retires the slot *)
Definition retire (s : Z) : Z := if s <? i16_max then - s - 1 else i16_min.

Lemma retire_range : forall s, 0 <= s -> i16_min <= retire s < 0.
Proof. intros s H. unfold retire, i16_min, i16_max. destruct (Z.ltb_spec s 32767); lia. Qed.

Lemma retire_spec : forall s, 0 <= s <= i16_max -> s < - retire s /\ (i16_min <? retire s) = (s <? i16_max).
Proof.
  intros s H. unfold retire, i16_min, i16_max in *. destruct (Z.ltb_spec s 32767).
  - split; [lia|]. apply Z.ltb_lt. lia.
  - split; [lia|]. apply Z.ltb_irrefl.
Qed.

Lemma as_removed_live : forall dbg s, 0 <= s -> st_as_removed dbg s = Ok (retire s).
Proof.
  intros dbg s H. unfold st_as_removed, st_is_removed, retire.
  destruct (Z.ltb_spec s 0); [lia|]. rewrite andb_false_r.
  destruct (Z.ltb_spec s i16_max); [|reflexivity].
  rewrite arith16_in by (unfold i16_min, i16_max in *; lia).
  apply arith16_in. unfold i16_min, i16_max in *; lia.
Qed.

Lemma reuseable_removed : forall dbg s, i16_min <= s < 0 -> st_reuseable dbg s = Ok (i16_min <? s).
Proof.
  intros dbg s H. unfold st_reuseable, st_is_removed.
  destruct (Z.ltb_spec s 0); [|lia]. cbn [negb]. rewrite andb_false_r. reflexivity.
Qed.

Lemma reuse_removed : forall dbg s, i16_min < s < 0 -> st_reuse dbg s = Ok (- s).
Proof.
  intros dbg s H. unfold st_reuse.
  assert (G : arith16 dbg (- s) = Ok (- s)) by (apply arith16_in; unfold i16_min, i16_max in *; lia).
  destruct dbg; [|exact G].
  rewrite reuseable_removed by lia. destruct (Z.ltb_spec i16_min s); [exact G|lia].
Qed.

Lemma cycle_increases : forall dbg s s' s'', 0 <= s <= i16_max ->
  st_as_removed dbg s = Ok s' -> st_reuseable dbg s' = Ok true -> st_reuse dbg s' = Ok s'' ->
  s'' = s + 1 /\ s'' <= i16_max.
Proof.
  intros dbg s s' s'' H H1 H2 H3. rewrite as_removed_live in H1 by lia.
  injection H1 as <-. unfold retire in *. destruct (Z.ltb_spec s i16_max).
  - rewrite reuse_removed in H3 by (unfold i16_min, i16_max in *; lia). injection H3 as <-. lia.
  - rewrite reuseable_removed in H2 by (unfold i16_min; lia).
    rewrite Z.ltb_irrefl in H2. discriminate.
Qed.

Lemma exhausted_retired : forall dbg,
  st_as_removed dbg i16_max = Ok i16_min /\ st_reuseable dbg i16_min = Ok false.
Proof.
  intros dbg. split.
  - rewrite as_removed_live by (unfold i16_max; lia). unfold retire. now rewrite Z.ltb_irrefl.
  - rewrite reuseable_removed by (unfold i16_min; lia). now rewrite Z.ltb_irrefl.
Qed.

Lemma same_shape_sym : forall a a', same_shape a a' -> same_shape a' a.
Proof. exact Layer1.same_shape_sym. Qed.

Lemma same_shape_inv : forall a a' i n', same_shape a a' -> nth_error (nodes a') i = Some n' ->
  exists n, nth_error (nodes a) i = Some n /\ stamp n' = stamp n /\ data n' = data n.
Proof.
  intros a a' i n' H Hn'. destruct (same_shape_sym _ _ H) as (_ & _ & _ & N).
  destruct (N _ _ Hn') as (n & Hn & S & D). eauto.
Qed.

(* [same_shape] is kept whatever the outcome, also when the operation panics half-way *)
Definition shape_pres {A} (m : M A) : Prop := forall a a' r, m a = (a', r) -> same_shape a a'.

Lemma shape_lift : forall A (r : R A), shape_pres (lift r).
Proof. intros A r a a' r' H. injection H as <- _. apply same_shape_refl. Qed.
Lemma shape_ret : forall A (x : A), shape_pres (ret x).
Proof. intros A x. exact (shape_lift A (rret x)). Qed.
Lemma shape_panic : forall A c, shape_pres (@panic A c).
Proof. intros A c. exact (shape_lift A (fun _ => Panic c)). Qed.
Lemma shape_diverge : forall A, shape_pres (@diverge A).
Proof. intros A. exact (shape_lift A (fun _ => Diverge)). Qed.
Lemma shape_get_arena : shape_pres get_arena.
Proof. exact (shape_lift arena (fun a => Ok a)). Qed.
Lemma shape_rd : forall i, shape_pres (rd i).
Proof.
  intros i a a' r H. unfold rd in H.
  destruct (nth_error (nodes a) i); injection H as <- _; apply same_shape_refl.
Qed.
Lemma shape_rdi : forall x, shape_pres (rdi x).
Proof. intros x. apply shape_rd. Qed.

Lemma shape_bind : forall A B (m : M A) (k : A -> M B),
  shape_pres m -> (forall x, shape_pres (k x)) -> shape_pres (bind m k).
Proof.
  intros A B m k Hm Hk a a' r H. unfold bind in H.
  destruct (m a) as [a1 [x|c|]] eqn:E.
  - eapply same_shape_trans; [eapply Hm; eauto | eapply Hk; eauto].
  - injection H as <- _. eapply Hm; eauto.
  - injection H as <- _. eapply Hm; eauto.
Qed.

Lemma shape_dassert : forall dbg b, shape_pres (dassert dbg b).
Proof. intros [|] [|]; cbn; first [apply shape_ret | apply shape_panic]. Qed.
Lemma shape_when_dbg : forall dbg m, shape_pres m -> shape_pres (when_dbg dbg m).
Proof. intros [|] m H; cbn; auto. apply shape_ret. Qed.

Lemma shape_upd : forall i g, (forall n, stamp (g n) = stamp n /\ data (g n) = data n) ->
  shape_pres (upd i g).
Proof.
  intros i g Hg a a' r H. unfold upd in H.
  destruct (nth_error (nodes a) i) as [n|] eqn:E; injection H as <- _; [|apply same_shape_refl].
  unfold same_shape, set_nodes; cbn. rewrite length_list_set. repeat split; auto.
  intros j m Hm. destruct (Nat.eq_dec j i) as [->|Hji].
  - rewrite (nth_list_set_eq _ _ _ _ _ E). exists (g n). rewrite E in Hm. injection Hm as <-.
    destruct (Hg n); auto.
  - rewrite nth_list_set_neq by assumption. eauto.
Qed.

Lemma shape_updi_setf : forall x f v, shape_pres (updi x (setf f v)).
Proof. intros x f v. apply shape_upd. intros n; destruct f; auto. Qed.
Lemma shape_updi_clear_links : forall x, shape_pres (updi x clear_links).
Proof. intros x. apply shape_upd. intros n; auto. Qed.
Lemma shape_updi_ends : forall p f l, shape_pres (updi p (fun n => setf Flast l (setf Ffirst f n))).
Proof. intros p f l. apply shape_upd. intros n; auto. Qed.

(* The structural operations are built from the steps above by [bind] and case distinctions: once
   a function is unfolded, [auto with shape] follows its syntax; every lemma proved joins the hints.
   A depth is given where the binds nest deeper than the default of 5. *)
Create HintDb shape discriminated.
#[local] Hint Resolve shape_lift shape_ret shape_panic shape_diverge shape_get_arena
  shape_rdi shape_bind shape_dassert shape_when_dbg shape_updi_setf shape_updi_clear_links
  shape_updi_ends : shape.
#[local] Hint Extern 1 (shape_pres (match ?x with _ => _ end)) => destruct x : shape.

Lemma shape_assert_eq_onid : forall x y, shape_pres (assert_eq_onid x y).
Proof. intros. unfold assert_eq_onid. auto with shape. Qed.
#[local] Hint Resolve shape_assert_eq_onid : shape.

Lemma shape_assert_triangle_nodes : forall par pv nx, shape_pres (assert_triangle_nodes par pv nx).
Proof. intros. unfold assert_triangle_nodes. auto with shape. Qed.
#[local] Hint Resolve shape_assert_triangle_nodes : shape.

Lemma shape_dtriangle : forall dbg par pv nx, shape_pres (dtriangle dbg par pv nx).
Proof. intros. unfold dtriangle. auto with shape. Qed.

Lemma shape_dparent_ends_agree : forall par, shape_pres (dparent_ends_agree par).
Proof. intros. unfold dparent_ends_agree. auto with shape. Qed.

Lemma shape_dnot_removed : forall o, shape_pres (dnot_removed o).
Proof. intros. unfold dnot_removed. auto with shape. Qed.

Lemma shape_expect : forall r, shape_pres (expect r).
Proof. intros. unfold expect. auto with shape. Qed.

Lemma shape_expect_n : forall r, shape_pres (expect_n r).
Proof. intros. unfold expect_n. auto with shape. Qed.
#[local] Hint Resolve shape_dtriangle shape_dparent_ends_agree shape_dnot_removed shape_expect
  shape_expect_n : shape.

Lemma shape_connect_neighbors : forall dbg par pv nx, shape_pres (connect_neighbors dbg par pv nx).
Proof. intros. unfold connect_neighbors. auto 9 with shape. Qed.
#[local] Hint Resolve shape_connect_neighbors : shape.

Lemma shape_detach_from_siblings : forall dbg f l, shape_pres (detach_from_siblings dbg f l).
Proof. intros. unfold detach_from_siblings. auto 16 with shape. Qed.

Lemma shape_rewrite_parents_loop : forall fuel c np, shape_pres (rewrite_parents_loop fuel c np).
Proof. induction fuel; intros [c|] np; cbn [rewrite_parents_loop]; auto with shape. Qed.

Lemma shape_rewrite_parents : forall f np, shape_pres (rewrite_parents f np).
Proof. intros. unfold rewrite_parents. pose proof shape_rewrite_parents_loop. auto with shape. Qed.
#[local] Hint Resolve shape_detach_from_siblings shape_rewrite_parents : shape.

Lemma shape_transplant : forall dbg f l par pv nx, shape_pres (transplant dbg f l par pv nx).
Proof. intros. unfold transplant. auto 14 with shape. Qed.

Lemma shape_detach : forall dbg x, shape_pres (detach dbg x).
Proof. intros. unfold detach. auto with shape. Qed.
#[local] Hint Resolve shape_transplant shape_detach : shape.

Lemma shape_insert_with_neighbors : forall dbg new par pv nx,
  shape_pres (insert_with_neighbors dbg new par pv nx).
Proof. intros. unfold insert_with_neighbors. auto 9 with shape. Qed.

Lemma shape_insert_last_unchecked : forall dbg c p, shape_pres (insert_last_unchecked dbg c p).
Proof. intros. unfold insert_last_unchecked. auto with shape. Qed.

Lemma shape_either_removed : forall x y, shape_pres (either_removed x y).
Proof. intros. unfold either_removed. auto with shape. Qed.
Lemma shape_is_ancestor_or_self : forall x y, shape_pres (is_ancestor_or_self x y).
Proof. intros. unfold is_ancestor_or_self. auto with shape. Qed.
Lemma shape_is_strict_ancestor : forall x y, shape_pres (is_strict_ancestor x y).
Proof. intros. unfold is_strict_ancestor. auto with shape. Qed.
#[local] Hint Resolve shape_insert_with_neighbors shape_either_removed shape_is_ancestor_or_self
  shape_is_strict_ancestor : shape.

Lemma shape_checked_insert : forall dbg k x c, shape_pres (checked_insert dbg k x c).
Proof.
  intros. destruct k; cbn [checked_insert];
    unfold checked_append, checked_prepend, checked_insert_after, checked_insert_before;
    auto 10 with shape.
Qed.

Lemma shape_unchecked_insert : forall dbg k x c, shape_pres (unchecked_insert dbg k x c).
Proof.
  intros. pose proof (shape_checked_insert dbg k) as H.
  destruct k; cbn [checked_insert unchecked_insert] in *;
    unfold append, prepend, insert_after, insert_before; auto with shape.
Qed.

Ltac sn := cbn [nodes ffree lfree set_nodes set_ffree set_lfree ar issued removed dropped idx gen] in *.

Lemma stamp_at_some : forall a i s,
  stamp_at a i = Some s <-> exists n, nth_error (nodes a) i = Some n /\ stamp n = s.
Proof.
  intros a i s. unfold stamp_at. destruct (nth_error (nodes a) i) as [n|]; cbn; split.
  - intros [= <-]. eauto.
  - intros (m & [= <-] & <-). reflexivity.
  - discriminate.
  - intros (m & H & _). discriminate.
Qed.

Lemma live_iff : forall a x, live a x <-> stamp_at a (idx x) = Some (gen x) /\ 0 <= gen x.
Proof.
  intros a x. rewrite stamp_at_some. unfold live, node_at. split.
  - intros (n & H & S & G). eauto.
  - intros ((n & H & S) & G). eauto.
Qed.

Lemma live_dec : forall a x, live a x \/ ~ live a x.
Proof.
  intros a x. rewrite live_iff.
  destruct (stamp_at a (idx x)) as [s|].
  - destruct (Z.eq_dec s (gen x)); [|right; intros [H _]; congruence].
    destruct (Z_le_gt_dec 0 (gen x)); [left; split; congruence|right; intros [_ H]; lia].
  - right. intros [H _]. discriminate.
Qed.

Lemma reusable_iff : forall a i,
  reusable_slot a i <-> exists s, stamp_at a i = Some s /\ i16_min < s < 0.
Proof.
  intros a i. unfold reusable_slot. split.
  - intros (n & Hn & G). exists (stamp n). split; [apply stamp_at_some; eauto|exact G].
  - intros (s & Hs & G). apply stamp_at_some in Hs. destruct Hs as (n & Hn & <-). eauto.
Qed.

(* [a'] holds [f] in slot [i] and is [a] in every other slot (which [a] need not have) *)
Definition slot_set (a a' : arena) (i : nat) (f : node) : Prop :=
  nth_error (nodes a') i = Some f /\ forall j, j <> i -> nth_error (nodes a') j = nth_error (nodes a) j.

Lemma slot_set_upd : forall a a' i n f, nth_error (nodes a) i = Some n ->
  nodes a' = list_set i f (nodes a) -> slot_set a a' i f.
Proof.
  intros a a' i n f Hn E. unfold slot_set. rewrite E.
  split; [eapply nth_list_set_eq; eauto|intros; now apply nth_list_set_neq].
Qed.

Lemma slot_set_stamp_at : forall a a' i f, slot_set a a' i f ->
  stamp_at a' i = Some (stamp f) /\ forall j, j <> i -> stamp_at a' j = stamp_at a j.
Proof. intros a a' i f (X & O). unfold stamp_at. split; [now rewrite X|intros; now rewrite O]. Qed.

Definition lives (st : nat -> option Z) (x : nid) : Prop := st (idx x) = Some (gen x) /\ 0 <= gen x.

(* the clauses of [AllocOK] that see the arena only through the stamps [st] of its slots *)
Record StampsOK (st : nat -> option Z) (iss rem : list nid) : Prop := mkStampsOK {
  so_range : forall i s, st i = Some s -> i16_min <= s <= i16_max;
  so_nodup : NoDup iss;
  so_issued : forall x, In x iss ->
                exists s, st (idx x) = Some s /\ 0 <= gen x /\
                          (0 <= s -> gen x <= s) /\ (s < 0 -> gen x < - s);
  so_live : forall i s, st i = Some s -> 0 <= s -> In (mkId i s) iss;
  so_removed : forall x, In x rem <-> (In x iss /\ ~ lives st x)
}.

Definition DataOK (a : arena) : Prop :=
  forall i n, nth_error (nodes a) i = Some n -> (0 <= stamp n <-> exists v, data n = Data v).

Lemma AllocOK_stamps : forall w, AllocOK w -> StampsOK (stamp_at (ar w)) (issued w) (removed w).
Proof.
  intros w [Hrange _ Hnodup Hissued Hlive Hremoved _]. constructor; auto.
  - intros i s H. apply stamp_at_some in H. destruct H as (n & Hn & <-). eauto.
  - intros x Hx. destruct (Hissued x Hx) as (n & Hn & G). exists (stamp n).
    split; [apply stamp_at_some; eauto|exact G].
  - intros i s H. apply stamp_at_some in H. destruct H as (n & Hn & <-). eauto.
  - intros x. rewrite Hremoved. unfold lives. now rewrite live_iff.
Qed.

Lemma AllocOK_intro : forall a iss rem drp, StampsOK (stamp_at a) iss rem -> DataOK a ->
  (exists FL, FreeOK a FL) -> AllocOK (mkWorld a iss rem drp).
Proof.
  intros a iss rem drp [Hrange Hnodup Hissued Hlive Hremoved] HD HF. constructor; sn; auto.
  - intros i n Hn. apply (Hrange i). apply stamp_at_some; eauto.
  - intros x Hx. destruct (Hissued x Hx) as (s & Hs & G). apply stamp_at_some in Hs.
    destruct Hs as (n & Hn & <-). eauto.
  - intros i n Hn. apply Hlive. apply stamp_at_some; eauto.
  - intros x. rewrite Hremoved. unfold lives. now rewrite live_iff.
Qed.

Lemma StampsOK_ext : forall st st' iss rem, (forall i, st' i = st i) ->
  StampsOK st iss rem -> StampsOK st' iss rem.
Proof.
  intros st st' iss rem E [Hrange Hnodup Hissued Hlive Hremoved].
  constructor; auto; unfold lives in *; intros *; rewrite E; eauto.
Qed.

(* Slot [i], absent or removed so far, gets the stamp [s'] >= 0.  The ids issued for a slot with stamp
   [s < 0] have generations below [- s] ([so_issued]), so the premise [- s <= s'] makes [mkId i s'] a new
   id; it is the only one whose liveness changes. *)
Lemma StampsOK_alloc : forall st st' iss rem i s',
  StampsOK st iss rem -> st' i = Some s' -> (forall j, j <> i -> st' j = st j) ->
  0 <= s' <= i16_max -> (forall s, st i = Some s -> s < 0 /\ - s <= s') ->
  ~ In (mkId i s') iss /\ StampsOK st' (iss ++ [mkId i s']) rem.
Proof.
  intros st st' iss rem i s' [Hrange Hnodup Hissued Hlive Hremoved] Hi Ho Hs' Hold.
  assert (K : forall y, In y iss -> idx y = i -> 0 <= gen y < s' /\ ~ lives st y).
  { intros y Hy E. destruct (Hissued y Hy) as (s & Hs & G0 & _ & G). rewrite E in Hs.
    destruct (Hold s Hs). split; [lia|]. intros (L & _). rewrite E in L. assert (s = gen y) by congruence. lia. }
  assert (NX : ~ In (mkId i s') iss) by (intros H; destruct (K _ H eq_refl); cbn in *; lia).
  assert (KL : forall y, In y iss -> (lives st y <-> lives st' y)).
  { intros y Hy. unfold lives. destruct (Nat.eq_dec (idx y) i) as [E|E]; [|now rewrite (Ho _ E)].
    destruct (K y Hy E) as (G & NL). split; [intros L; now destruct NL|]. intros (L & _). rewrite E, Hi in L.
    injection L. lia. }
  split; [exact NX|]. constructor.
  - intros j s H. destruct (Nat.eq_dec j i) as [->|E].
    + rewrite Hi in H. injection H as <-. unfold i16_min. lia.
    + rewrite Ho in H by exact E. eauto.
  - now apply NoDup_snoc.
  - intros y Hy. apply in_app_or in Hy. destruct Hy as [Hy|[<-|[]]].
    + destruct (Nat.eq_dec (idx y) i) as [E|E]; [|rewrite (Ho _ E); auto].
      destruct (K y Hy E). exists s'. rewrite E. split; [exact Hi|]. lia.
    + exists s'. cbn. split; [exact Hi|]. lia.
  - intros j s H G. apply in_or_app. destruct (Nat.eq_dec j i) as [->|E].
    + right. rewrite Hi in H. injection H as <-. now left.
    + left. rewrite Ho in H by exact E. eauto.
  - intros y. rewrite Hremoved, in_app_iff. split.
    + intros (Hy & NL). split; [auto|]. now rewrite <- KL.
    + intros ([Hy|[<-|[]]] & NL).
      * split; [auto|]. now rewrite KL.
      * exfalso. apply NL. split; cbn; [exact Hi|lia].
Qed.

(* The live id [x] is retired: its slot gets the negative stamp [s'], beyond every id issued for it. *)
Lemma StampsOK_free : forall st st' iss rem x s',
  StampsOK st iss rem -> lives st x -> st' (idx x) = Some s' ->
  (forall j, j <> idx x -> st' j = st j) -> i16_min <= s' < 0 -> gen x < - s' ->
  StampsOK st' iss (rem ++ [x]).
Proof.
  intros st st' iss rem x s' [Hrange Hnodup Hissued Hlive Hremoved] (Lx & Gx) Hi Ho Hs' Hg.
  assert (KL : forall y, lives st' y <-> (lives st y /\ y <> x)).
  { intros y. unfold lives. destruct (Nat.eq_dec (idx y) (idx x)) as [E|E].
    - rewrite E, Hi, Lx. split.
      + intros (L & G). injection L. lia.
      + intros ((L & G) & NE). destruct NE. destruct x, y; cbn in *; congruence.
    - rewrite (Ho _ E). split; [|tauto]. intros H. split; [exact H|]. intros ->. now apply E. }
  assert (XI : In x iss) by (specialize (Hlive _ _ Lx Gx); now destruct x).
  constructor; auto.
  - intros j s H. destruct (Nat.eq_dec j (idx x)) as [->|E].
    + rewrite Hi in H. injection H as <-. unfold i16_max. lia.
    + rewrite Ho in H by exact E. eauto.
  - intros y Hy. destruct (Hissued y Hy) as (s & Hs & G0 & G1 & G2).
    destruct (Nat.eq_dec (idx y) (idx x)) as [E|E]; [|rewrite (Ho _ E); eauto].
    rewrite E in *. rewrite Lx in Hs. injection Hs as <-. exists s'. split; [exact Hi|]. lia.
  - intros j s H G. destruct (Nat.eq_dec j (idx x)) as [->|E].
    + rewrite Hi in H. injection H as <-. lia.
    + rewrite Ho in H by exact E. eauto.
  - intros y. rewrite in_app_iff, Hremoved, KL. cbn [In].
    destruct (nid_eq_dec x y) as [<-|NE]; split.
    + intros _. split; [exact XI|]. intros (_ & NE). now apply NE.
    + intros _. right. now left.
    + intros [(Hy & NL)|[E|[]]]; [|contradiction]. split; [exact Hy|]. intros (L & _). now apply NL.
    + intros (Hy & NL). left. split; [exact Hy|]. intros L. apply NL. split; [exact L|].
      intros ->. now apply NE.
Qed.

(* all stamps stay, and so do the ghost lists *)
Lemma AllocOK_kept : forall w a' drp', AllocOK w -> (forall j, stamp_at a' j = stamp_at (ar w) j) ->
  DataOK a' -> (exists FL, FreeOK a' FL) -> AllocOK (mkWorld a' (issued w) (removed w) drp').
Proof.
  intros w a' drp' OK E HD HF. apply AllocOK_intro; auto.
  apply (StampsOK_ext _ _ _ _ E). now apply AllocOK_stamps.
Qed.

Lemma flseg_frame : forall a a' l cur, flseg a cur l ->
  (forall j n, In j l -> nth_error (nodes a) j = Some n ->
     exists n', nth_error (nodes a') j = Some n' /\ data n' = data n) ->
  flseg a' cur l.
Proof.
  intros a a'. induction l as [|i r IH]; intros cur H Hf; cbn in *; auto.
  destruct H as (-> & n & nf & Hn & Hd & Hr). split; auto.
  destruct (Hf i n) as (n' & Hn' & Hd'); auto.
  exists n', nf. repeat split; auto; try congruence.
Qed.

Lemma flseg_frame_eq : forall a a' l cur, flseg a cur l ->
  (forall j, In j l -> nth_error (nodes a') j = nth_error (nodes a) j) -> flseg a' cur l.
Proof.
  intros a a' l cur H Hf. eapply flseg_frame; eauto.
  intros j n Hj Hn. exists n. rewrite Hf; auto.
Qed.

Lemma flseg_fun : forall a l1 l2 cur, flseg a cur l1 -> flseg a cur l2 -> l1 = l2.
Proof.
  intros a. induction l1 as [|i r IH]; intros [|j s] cur H1 H2; cbn in *; auto.
  - destruct H2 as (H2 & _). congruence.
  - destruct H1 as (H1 & _). congruence.
  - destruct H1 as (-> & n & nf & Hn & Hd & Hr). destruct H2 as (E & n' & nf' & Hn' & Hd' & Hr').
    injection E as <-. rewrite Hn in Hn'. injection Hn' as <-. rewrite Hd in Hd'. injection Hd' as <-.
    f_equal. eauto.
Qed.

Lemma flseg_snoc : forall a a' k z l cur, flseg a cur (l ++ [z]) ->
  (forall j, In j l -> nth_error (nodes a') j = nth_error (nodes a) j) ->
  (exists n, nth_error (nodes a') z = Some n /\ data n = NextFree (Some k)) ->
  (exists n, nth_error (nodes a') k = Some n /\ data n = NextFree None) ->
  flseg a' cur ((l ++ [z]) ++ [k]).
Proof.
  intros a a' k z. induction l as [|i r IH]; intros cur H Hf (nz & Hz & Dz) (nk & Hk & Dk); cbn in H |- *.
  - destruct H as (-> & _). split; [reflexivity|]. exists nz, (Some k). repeat split; auto. exists nk, None. auto.
  - destruct H as (-> & n & nf & Hn & Hd & Hr). split; [reflexivity|]. exists n, nf.
    rewrite Hf by now left. repeat split; auto. apply IH; eauto. intros j Hj. apply Hf. now right.
Qed.

Lemma flseg_in_range : forall a l cur i, flseg a cur l -> In i l -> exists n, nth_error (nodes a) i = Some n.
Proof.
  intros a. induction l as [|j r IH]; intros cur i H Hi; [destruct Hi|].
  cbn in H. destruct H as (-> & n & nf & Hn & Hd & Hr). destruct Hi as [<-|Hi]; eauto.
Qed.

Lemma free_walk_flseg : forall a l fuel cur, flseg a cur l -> (length l <= fuel)%nat ->
  free_walk fuel a cur = l.
Proof.
  intros a. induction l as [|i r IH]; intros fuel cur H L; cbn in H.
  - subst. destruct fuel; reflexivity.
  - destruct H as (-> & n & nf & Hn & Hd & Hr). destruct fuel; cbn in L; [lia|].
    cbn [free_walk]. rewrite Hn, Hd. f_equal. apply IH; auto. lia.
Qed.

(* the ghost list is the observable free list *)
Lemma free_list_correct : forall a FL, FreeOK a FL -> free_list a = FL.
Proof.
  intros a FL (Hseg & _ & ND & _). unfold free_list. apply free_walk_flseg; auto.
  apply NoDup_idx_bound; auto. intros i Hi.
  destruct (flseg_in_range _ _ _ _ Hseg Hi) as (n & Hn). eapply nth_error_some_lt; eauto.
Qed.

Lemma FreeOK_fun : forall a FL1 FL2, FreeOK a FL1 -> FreeOK a FL2 -> FL1 = FL2.
Proof. intros a FL1 FL2 H1 H2. rewrite <- (free_list_correct _ _ H1). now apply free_list_correct. Qed.

Lemma reusable_stamp_at : forall a a' j, stamp_at a' j = stamp_at a j ->
  (reusable_slot a' j <-> reusable_slot a j).
Proof. intros a a' j E. rewrite !reusable_iff. now rewrite E. Qed.

Lemma same_shape_stamp_at : forall a a' j, same_shape a a' -> stamp_at a' j = stamp_at a j.
Proof.
  intros a a' j (L & _ & _ & N). unfold stamp_at. destruct (nth_error (nodes a) j) as [m|] eqn:Hm.
  - destruct (N _ _ Hm) as (m' & -> & E & _). cbn. now rewrite E.
  - apply nth_error_None in Hm. rewrite <- L in Hm. apply nth_error_None in Hm. now rewrite Hm.
Qed.

Lemma usable_same_shape : forall a a' x, same_shape a a' -> (usable a x <-> usable a' x).
Proof.
  intros. unfold usable. now rewrite (live_same_shape a a' x), (slot_removed_same_shape a a' x).
Qed.

Lemma FreeOK_same_shape : forall a a' FL, FreeOK a FL -> same_shape a a' -> FreeOK a' FL.
Proof.
  intros a a' FL (Hseg & Hlast & ND & Hreus) H. pose proof H as (_ & F & E & N). unfold FreeOK. rewrite F, E.
  split; [|split; [exact Hlast|split; [exact ND|intros j]]].
  - eapply flseg_frame; eauto. intros j n _ Hn. destruct (N _ _ Hn) as (n' & Hn' & _ & D). eauto.
  - rewrite Hreus. symmetry. apply reusable_stamp_at. now apply same_shape_stamp_at.
Qed.

Lemma AllocOK_same_shape : forall w a', AllocOK w -> same_shape (ar w) a' ->
  AllocOK (mkWorld a' (issued w) (removed w) (dropped w)).
Proof.
  intros w a' OK H. apply AllocOK_kept; auto.
  - intros j. now apply same_shape_stamp_at.
  - intros i n' Hn'. destruct (same_shape_sym _ _ H) as (_ & _ & _ & N).
    destruct (N _ _ Hn') as (n & Hn & S & D). rewrite <- S, <- D. apply (al_data _ OK _ _ Hn).
  - destruct (al_free _ OK) as (FL & FO). exists FL. eapply FreeOK_same_shape; eauto.
Qed.

Lemma FreeOK_not_live : forall a FL i n, FreeOK a FL -> nth_error (nodes a) i = Some n -> 0 <= stamp n ->
  ~ In i FL.
Proof.
  intros a FL i n FO Hn Hs H. apply FO in H. destruct H as (n0 & Hn0 & G).
  rewrite Hn in Hn0. injection Hn0 as <-. lia.
Qed.

Lemma FreeOK_last : forall a FL l, FreeOK a FL -> lfree a = Some l -> In l FL.
Proof. intros a FL l (_ & E & _) El. apply last_error_In. congruence. Qed.

(* a slot outside the free list is overwritten with a live node *)
Lemma FreeOK_live_slot : forall a a' i f FL, slot_set a a' i f -> 0 <= stamp f -> ~ In i FL ->
  flseg a (ffree a') FL -> lfree a' = last_error FL -> NoDup FL ->
  (forall j, j <> i -> (In j FL <-> reusable_slot a j)) -> FreeOK a' FL.
Proof.
  intros a a' i f FL SS Hf NI Hseg Hlast ND R. destruct (slot_set_stamp_at _ _ _ _ SS) as (SX & SO).
  split; [|split; [exact Hlast|split; [exact ND|intros j]]].
  - eapply flseg_frame_eq; eauto. intros j Hj. apply SS. intros ->. auto.
  - destruct (Nat.eq_dec j i) as [->|E].
    + split; [contradiction|]. rewrite reusable_iff, SX. intros (s & [= <-] & G). lia.
    + now rewrite (reusable_stamp_at a a' j (SO j E)), R.
Qed.

Lemma slot_set_DataOK : forall a a' i f, slot_set a a' i f -> DataOK a ->
  (0 <= stamp f <-> exists v, data f = Data v) -> DataOK a'.
Proof.
  intros a a' i f (X & O) HD Hf j n Hn. destruct (Nat.eq_dec j i) as [->|E].
  - rewrite X in Hn. now injection Hn as <-.
  - rewrite O in Hn by exact E. eauto.
Qed.

(* a fresh node with stamp [s'] in slot [i]: the new id [mkId i s'] is issued *)
Lemma AllocOK_alloc : forall w a' i s' v, AllocOK w ->
  slot_set (ar w) a' i (fresh_node s' (Data v)) -> 0 <= s' <= i16_max ->
  (forall s, stamp_at (ar w) i = Some s -> s < 0 /\ - s <= s') -> (exists FL, FreeOK a' FL) ->
  ~ In (mkId i s') (issued w) /\ live a' (mkId i s') /\
  AllocOK (mkWorld a' (issued w ++ [mkId i s']) (removed w) (dropped w)).
Proof.
  intros w a' i s' v OK SS Hs' Hold HF. destruct (slot_set_stamp_at _ _ _ _ SS) as (Hi & Ho).
  cbn [stamp fresh_node] in Hi.
  destruct (StampsOK_alloc _ _ _ _ _ _ (AllocOK_stamps w OK) Hi Ho Hs' Hold) as (NX & SO).
  split; [exact NX|]. split.
  - apply live_iff. cbn. split; [exact Hi|lia].
  - apply AllocOK_intro; auto. apply (slot_set_DataOK _ _ _ _ SS (al_data _ OK)).
    cbn. split; [eauto|lia].
Qed.

Lemma pop_front_none : forall a, ffree a = None ->
  pop_front_free_node a = (set_ffree None a, Ok None).
Proof. intros a H. unfold pop_front_free_node, bind, get_arena, put_arena. now rewrite H. Qed.

Lemma pop_front_some : forall a i n nf, ffree a = Some i -> nth_error (nodes a) i = Some n ->
  data n = NextFree nf ->
  pop_front_free_node a = (mkArena (nodes a) nf (if is_some nf then lfree a else None), Ok (Some i)).
Proof.
  intros a i n nf H Hn Hd. unfold pop_front_free_node, bind, get_arena, put_arena, rd. rewrite H.
  cbn. rewrite Hn, Hd. destruct nf; reflexivity.
Qed.

Lemma node_reuse_ok : forall a i n v s', nth_error (nodes a) i = Some n ->
  st_reuse false (stamp n) = Ok s' ->
  node_reuse false i v a = (set_nodes (list_set i (fresh_node s' (Data v)) (nodes a)) a, Ok s').
Proof.
  intros a i n v s' Hn Hs. unfold node_reuse, bind, rd, dassert, ret, liftres, upd.
  rewrite Hn, Hs, Hn. reflexivity.
Qed.

Theorem new_node_spec : forall w v FL, AllocOK w -> FreeOK (ar w) FL ->
  exists a' x, new_node false v (ar w) = (a', Ok x) /\
    ~ In x (issued w) /\ live a' x /\
    node_at a' x (fresh_node (gen x) (Data v)) /\
    (forall j, j <> idx x -> nth_error (nodes a') j = nth_error (nodes (ar w)) j) /\
    match FL with
    | i :: FL' => idx x = i /\ slot_removed (ar w) x /\ length (nodes a') = length (nodes (ar w)) /\ FreeOK a' FL'
    | [] => idx x = length (nodes (ar w)) /\ gen x = 0 /\ length (nodes a') = S (length (nodes (ar w))) /\ FreeOK a' []
    end /\
    AllocOK (mkWorld a' (issued w ++ [x]) (removed w) (dropped w)).
Proof.
  intros [a iss rem drp] v FL OK FO. sn.
  destruct FO as (Hseg & Hlast & HND & Hreus).
  destruct FL as [|i FL'].
  - (* the free list is empty: push *)
    cbn in Hseg, Hlast.
    set (f := fresh_node 0 (Data v)). set (a' := set_nodes (nodes a ++ [f]) (set_ffree None a)).
    assert (SS : slot_set a a' (length (nodes a)) f).
    { split; cbn; [apply nth_snoc_eq|intros; now apply nth_snoc_neq]. }
    assert (FO' : FreeOK a' []).
    { apply (FreeOK_live_slot a a' (length (nodes a)) f []); auto; [cbn; lia|reflexivity]. }
    destruct (AllocOK_alloc _ a' (length (nodes a)) 0 v OK SS) as (NX & LX & OK'); sn.
    { unfold i16_max. lia. }
    { intros s Hs. apply stamp_at_some in Hs. destruct Hs as (n & Hn & _).
      apply nth_error_some_lt in Hn. lia. }
    { exists []. exact FO'. }
    exists a', (mkId (length (nodes a)) 0). destruct SS as (X & O).
    split. { unfold new_node. erewrite bind_ok by (apply pop_front_none; assumption). reflexivity. }
    split; [exact NX|]. split; [exact LX|]. split; [exact X|]. split; [exact O|]. split; [|exact OK'].
    cbn [idx gen]. split; [reflexivity|]. split; [reflexivity|]. split; [|exact FO'].
    cbn. rewrite app_length. cbn. lia.
  - (* recycle the head of the free list *)
    cbn [flseg] in Hseg. destruct Hseg as (Hff & n & nf & Hn & Hd & Hseg).
    assert (Hs : i16_min < stamp n < 0).
    { destruct (proj1 (Hreus i) (or_introl eq_refl)) as (n0 & Hn0 & Hs). congruence. }
    set (s := stamp n) in *. set (f := fresh_node (- s) (Data v)).
    set (a1 := mkArena (nodes a) nf (if is_some nf then lfree a else None)).
    set (a' := set_nodes (list_set i f (nodes a)) a1).
    assert (SS : slot_set a a' i f) by (now apply (slot_set_upd a a' i n)).
    inversion HND as [|? ? NI ND']; subst.
    assert (FO' : FreeOK a' FL').
    { apply (FreeOK_live_slot a a' i f); auto; [cbn; lia| |].
      - cbn [lfree a' a1 set_nodes]. destruct FL' as [|k r].
        + cbn in Hseg. subst nf. reflexivity.
        + cbn [flseg] in Hseg. destruct Hseg as (-> & _). cbn [is_some].
          rewrite Hlast. apply last_error_cons.
      - intros j E. rewrite <- Hreus. cbn [In]. split; [auto|]. intros [->|H]; [contradiction|exact H]. }
    destruct (AllocOK_alloc _ a' i (- s) v OK SS) as (NX & LX & OK'); sn.
    { unfold i16_min, i16_max in *. lia. }
    { intros s0 Hs0. apply stamp_at_some in Hs0. destruct Hs0 as (n0 & Hn0 & <-).
      rewrite Hn in Hn0. injection Hn0 as <-. fold s. lia. }
    { exists FL'. exact FO'. }
    exists a', (mkId i (- s)). destruct SS as (X & O).
    split.
    { unfold new_node. erewrite bind_ok by (eapply pop_front_some; eauto). cbn beta iota.
      erewrite bind_ok by (apply (node_reuse_ok a1 i n v (- s)); [exact Hn|now apply reuse_removed]).
      reflexivity. }
    split; [exact NX|]. split; [exact LX|]. split; [exact X|]. split; [exact O|]. split; [|exact OK'].
    cbn [idx gen]. split; [reflexivity|]. split; [exists n; split; [exact Hn|lia]|].
    split; [apply length_list_set|exact FO'].
Qed.

(* the slot new_node takes holds no live node: it is the head of the free list, or lies beyond the arena *)
Lemma new_node_slot : forall w v a' x y, AllocOK w -> new_node false v (ar w) = (a', Ok x) ->
  live (ar w) y -> idx y <> idx x.
Proof.
  intros w v a' x y OK Hrun (n & Hn & Es & G) E. destruct (al_free _ OK) as (FL & FO).
  destruct (new_node_spec w v FL OK FO) as (a2 & x2 & Hrun2 & _ & _ & _ & _ & C & _).
  rewrite Hrun in Hrun2. injection Hrun2 as <- <-. unfold node_at in Hn. rewrite E in Hn.
  destruct FL as [|i FL'].
  - destruct C as (Ei & _). apply nth_error_some_lt in Hn. lia.
  - destruct C as (_ & (m & Hm & Sm) & _). unfold node_at in Hm. rewrite Hn in Hm. injection Hm as <-. lia.
Qed.

Definition same_links (n n' : node) : Prop :=
  parent n' = parent n /\ prev n' = prev n /\ next n' = next n /\ first n' = first n /\ last n' = last n.

Lemma same_links_refl : forall n, same_links n n.
Proof. intros n. repeat split. Qed.

Lemma same_links_trans : forall n1 n2 n3, same_links n1 n2 -> same_links n2 n3 -> same_links n1 n3.
Proof.
  intros n1 n2 n3 (A1 & A2 & A3 & A4 & A5) (B1 & B2 & B3 & B4 & B5). repeat split; congruence.
Qed.

(* The arena free_node leaves, in both build profiles: slot x gets the retired stamp and an empty free-list
   link; unless the slot is retired for good it is appended to the free list (behind slot l, or as its only
   element).  The branch in which l lies outside the arena only makes [freed] total: free_node panics there,
   and [free_node_eq] excludes it. *)
Definition freed (a : arena) (x : nid) (n : node) : arena :=
  let s' := retire (stamp n) in
  let a2 := set_nodes (list_set (idx x) (set_stamp s' (set_data (NextFree None) n)) (nodes a)) a in
  if i16_min <? s' then
    match lfree a with
    | Some l =>
        match nth_error (nodes a2) l with
        | Some nl => set_lfree (Some (idx x))
                       (set_nodes (list_set l (set_data (NextFree (Some (idx x))) nl) (nodes a2)) a2)
        | None => a2
        end
    | None => set_lfree (Some (idx x)) (set_ffree (Some (idx x)) a2)
    end
  else a2.

Lemma free_node_eq : forall dbg a x n, nth_error (nodes a) (idx x) = Some n -> 0 <= stamp n ->
  (forall l, lfree a = Some l -> (l < length (nodes a))%nat) ->
  (dbg = true -> lfree a = None -> ffree a = None) ->
  free_node dbg x a = (freed a x n, Ok (match data n with Data v => Some v | NextFree _ => None end)).
Proof.
  intros dbg a x n Hn Hs Hl Hd. pose proof (retire_range _ Hs) as Hr.
  unfold free_node, rdi, updi, freed.
  rewrite (bind_ok _ _ _ _ _ _ _ (rd_ok _ _ _ Hn)), (bind_ok _ _ _ _ _ _ _ (upd_set _ _ _ _ Hn)).
  unfold liftres at 1. rewrite (bind_ok _ _ _ _ _ _ (retire (stamp n))) by (now rewrite as_removed_live).
  erewrite bind_ok by (apply upd_set; cbn [nodes set_nodes]; eapply nth_list_set_eq; eauto).
  cbn [nodes set_nodes]. rewrite list_set_twice.
  unfold liftres at 1. erewrite bind_ok by (rewrite reuseable_removed by assumption; reflexivity).
  set (a2 := set_nodes (list_set (idx x) _ (nodes a)) _).
  destruct (i16_min <? retire (stamp n)); [|reflexivity].
  rewrite bind_assoc. unfold bind at 1. unfold get_arena at 1. cbv beta iota. change (lfree a2) with (lfree a).
  destruct (lfree a) as [l|] eqn:El.
  - destruct (nth_error_lt _ (nodes a2) l) as (nl & Hnl).
    { cbn. rewrite !length_list_set. now apply Hl. }
    rewrite bind_assoc, (bind_ok _ _ _ _ _ _ _ (upd_set _ _ _ _ Hnl)).
    unfold a2 in Hnl. cbn [nodes set_nodes] in Hnl. now rewrite Hnl.
  - change (ffree a2) with (ffree a). destruct dbg; [rewrite (Hd eq_refl eq_refl)|]; reflexivity.
Qed.

(* What it leaves of every slot: the links; the stamp, except in the freed slot; the data, except in the
   freed slot and in the last slot of the free list, which hold free-list links afterwards. *)
Lemma freed_nodes : forall a x n, nth_error (nodes a) (idx x) = Some n ->
  length (nodes (freed a x n)) = length (nodes a) /\
  (forall i m, nth_error (nodes a) i = Some m ->
     exists m', nth_error (nodes (freed a x n)) i = Some m' /\ same_links m m' /\
       if Nat.eqb i (idx x) then stamp m' = retire (stamp n) /\ exists o, data m' = NextFree o
       else stamp m' = stamp m /\ (data m' = data m \/ lfree a = Some i /\ exists o, data m' = NextFree o)).
Proof.
  intros a x n Hn. unfold freed.
  set (n1 := set_stamp _ (set_data (NextFree None) n)).
  set (a2 := set_nodes (list_set (idx x) n1 (nodes a)) a).
  assert (S2 : forall i m, nth_error (nodes a) i = Some m ->
            exists m', nth_error (nodes a2) i = Some m' /\ same_links m m' /\
              if Nat.eqb i (idx x) then stamp m' = retire (stamp n) /\ exists o, data m' = NextFree o
              else stamp m' = stamp m /\ (data m' = data m \/ lfree a = Some i /\ exists o, data m' = NextFree o)).
  { intros i m Hm. cbn [nodes set_nodes a2]. rewrite (nth_list_set _ _ _ _ n1 i Hn).
    destruct (Nat.eqb_spec i (idx x)) as [->|N]; [|exists m; auto using same_links_refl].
    rewrite Hn in Hm. injection Hm as <-. exists n1. repeat split; auto. now exists None. }
  assert (L2 : length (nodes a2) = length (nodes a)) by apply length_list_set.
  destruct (i16_min <? retire (stamp n)); [|auto].
  destruct (lfree a) as [l|]; [|auto].
  destruct (nth_error (nodes a2) l) as [nl|] eqn:Hnl; [|auto].
  cbn [nodes set_nodes set_lfree]. split; [now rewrite length_list_set|].
  intros i m Hm. destruct (S2 i m Hm) as (m' & Hm' & K & C).
  rewrite (nth_list_set _ _ _ _ (set_data (NextFree (Some (idx x))) nl) i Hnl).
  destruct (Nat.eqb_spec i l) as [->|N]; [|eauto].
  rewrite Hnl in Hm'. injection Hm' as <-. exists (set_data (NextFree (Some (idx x))) nl).
  split; [reflexivity|]. split; [exact K|]. cbn [stamp data set_data].
  destruct (Nat.eqb l (idx x)); destruct C as (C & _); eauto 6.
Qed.

Lemma freed_slots : forall a x n, nth_error (nodes a) (idx x) = Some n ->
  length (nodes (freed a x n)) = length (nodes a) /\
  (forall i m, nth_error (nodes a) i = Some m ->
     exists m', nth_error (nodes (freed a x n)) i = Some m' /\ same_links m m' /\
                stamp m' = if Nat.eqb i (idx x) then retire (stamp n) else stamp m).
Proof.
  intros a x n Hn. destruct (freed_nodes a x n Hn) as (L & S). split; [exact L|].
  intros i m Hm. destruct (S i m Hm) as (m' & Hm' & K & C). exists m'.
  split; [exact Hm'|]. split; [exact K|]. destruct (Nat.eqb i (idx x)); apply C.
Qed.

Lemma freed_stamp_at : forall a x n j, nth_error (nodes a) (idx x) = Some n ->
  stamp_at (freed a x n) j = if Nat.eqb j (idx x) then Some (retire (stamp n)) else stamp_at a j.
Proof.
  intros a x n j Hn. destruct (freed_slots a x n Hn) as (L & S). unfold stamp_at.
  destruct (nth_error (nodes a) j) as [m|] eqn:Hm.
  - destruct (S j m Hm) as (m' & -> & _ & E). cbn. rewrite E. now destruct (Nat.eqb j (idx x)).
  - destruct (Nat.eqb_spec j (idx x)) as [->|_]; [congruence|].
    apply nth_error_None in Hm. rewrite <- L in Hm. apply nth_error_None in Hm. now rewrite Hm.
Qed.

Lemma freed_ends : forall a x n,
  (lfree (freed a x n) = None -> lfree a = None /\ ffree (freed a x n) = ffree a) /\
  (forall l, lfree (freed a x n) = Some l -> l = idx x \/ lfree a = Some l).
Proof.
  intros a x n. unfold freed. destruct (i16_min <? retire (stamp n)); [|auto].
  destruct (lfree a) as [l|] eqn:El; cbn; [|split; [discriminate | intros l [= <-]; auto]].
  destruct (nth_error _ l); cbn; [split; [discriminate | intros l' [= <-]; auto]|].
  rewrite El. split; [discriminate | auto].
Qed.

(* the free list afterwards: the freed slot is appended unless its generation counter is exhausted *)
Lemma freed_FreeOK : forall a x n FL, nth_error (nodes a) (idx x) = Some n -> 0 <= stamp n ->
  FreeOK a FL -> FreeOK (freed a x n) (FL ++ if i16_min <? retire (stamp n) then [idx x] else []).
Proof.
  intros a x n FL Hn Hs FO. pose proof FO as (Hseg & Hlast & ND & Hreus).
  pose proof (FreeOK_not_live a FL _ n FO Hn Hs) as NX.
  set (FL1 := FL ++ _).
  enough (H : flseg (freed a x n) (ffree (freed a x n)) FL1 /\ lfree (freed a x n) = last_error FL1 /\ NoDup FL1).
  { destruct H as (A & B & C). split; [exact A|]. split; [exact B|]. split; [exact C|]. intros j.
    unfold FL1. rewrite in_app_iff, Hreus, !reusable_iff, (freed_stamp_at a x n j Hn).
    pose proof (retire_range _ Hs) as Hr.
    destruct (Nat.eqb_spec j (idx x)) as [->|N].
    - unfold stamp_at at 1. rewrite Hn. cbn [option_map].
      destruct (Z.ltb_spec i16_min (retire (stamp n))); split.
      + intros _. eexists. split; [reflexivity|lia].
      + intros _. right. now left.
      + intros [(s & [= <-] & G)|[]]. lia.
      + intros (s & [= <-] & G). lia.
    - split; [|auto]. intros [H|H]; [exact H|].
      destruct (i16_min <? retire (stamp n)); [destruct H as [H|[]]; congruence|destruct H]. }
  unfold FL1, freed. set (n1 := set_stamp _ (set_data (NextFree None) n)).
  set (a2 := set_nodes (list_set (idx x) n1 (nodes a)) a).
  assert (X2 : nth_error (nodes a2) (idx x) = Some n1) by (eapply nth_list_set_eq; eauto).
  assert (O2 : forall j, In j FL -> nth_error (nodes a2) j = nth_error (nodes a) j).
  { intros j Hj. apply nth_list_set_neq. intros ->. auto. }
  assert (S2 : flseg a2 (ffree a) FL) by (eapply flseg_frame_eq; eauto).
  destruct (i16_min <? retire (stamp n)); [|rewrite app_nil_r; auto].
  destruct (lfree a) as [l|] eqn:El.
  - pose proof (FreeOK_last a FL l FO El) as Hl.
    destruct (flseg_in_range _ _ _ _ S2 Hl) as (nl & Hnl). rewrite Hnl. cbn [ffree lfree set_lfree set_nodes nodes].
    split; [|split; [now rewrite last_error_snoc|now apply NoDup_snoc]].
    symmetry in Hlast. destruct (last_error_split _ _ Hlast) as (FL0 & ->).
    apply NoDup_mid in ND. apply (flseg_snoc a2); cbn [nodes set_nodes set_lfree].
    + exact S2.
    + intros j Hj. apply nth_list_set_neq. intros ->. now apply ND.
    + eexists. split; [eapply nth_list_set_eq; eauto|reflexivity].
    + exists n1. split; [|reflexivity]. rewrite nth_list_set_neq; [exact X2|]. intros E. apply NX. now rewrite E.
  - rewrite (last_error_None FL) by congruence. cbn. split; [|split; [reflexivity|repeat constructor; auto]].
    split; [reflexivity|]. exists n1, None. auto.
Qed.

Theorem free_node_spec : forall w x FL, AllocOK w -> FreeOK (ar w) FL -> live (ar w) x ->
  exists a' v, free_node false x (ar w) = (a', Ok (Some v)) /\
    (exists n, node_at (ar w) x n /\ data n = Data v) /\
    (exists n', node_at a' x n' /\ stamp n' = (if gen x <? i16_max then - gen x - 1 else i16_min)) /\
    slot_removed a' x /\ ~ live a' x /\
    length (nodes a') = length (nodes (ar w)) /\
    (forall j n, nth_error (nodes (ar w)) j = Some n ->
       exists n', nth_error (nodes a') j = Some n' /\
         parent n' = parent n /\ prev n' = prev n /\ next n' = next n /\
         first n' = first n /\ last n' = last n /\
         (j <> idx x -> stamp n' = stamp n /\ (0 <= stamp n -> data n' = data n))) /\
    FreeOK a' (FL ++ (if gen x <? i16_max then [idx x] else [])) /\
    AllocOK (mkWorld a' (issued w) (removed w ++ [x]) (dropped w ++ [v])).
Proof.
  intros [a iss rem drp] x FL OK FO LV. sn.
  pose proof LV as (n & Hn & Hsn & Hg). unfold node_at in Hn.
  pose proof (al_data _ OK) as HD. pose proof (al_range _ OK _ _ Hn) as Hrn. sn.
  destruct (proj1 (HD _ _ Hn)) as (v & Hd); [lia|].
  assert (Hs : 0 <= stamp n) by lia.
  pose proof (retire_range _ Hs) as Hr. destruct (retire_spec (stamp n)) as (Hgs & Hreu); [lia|].
  pose proof (freed_FreeOK a x n FL Hn Hs FO) as FO'. rewrite Hreu in FO'.
  destruct (freed_nodes a x n Hn) as (L & S). pose proof (freed_stamp_at a x n) as ST.
  assert (Hl : forall l m, lfree a = Some l -> nth_error (nodes a) l = Some m -> stamp m < 0).
  { intros l m El Hm. apply (FreeOK_last a FL l FO), FO in El. destruct El as (m0 & Hm0 & G).
    rewrite Hm in Hm0. injection Hm0 as <-. lia. }
  destruct (S _ _ Hn) as (n1 & X & _ & C). rewrite Nat.eqb_refl in C. destruct C as (St1 & o1 & Dt1).
  rewrite Hsn in *. exists (freed a x n), v. split.
  { rewrite (free_node_eq false a x n Hn); [now rewrite Hd|lia| |discriminate].
    intros l El. destruct (flseg_in_range _ _ _ l (proj1 FO)) as (nl & Hnl); [eapply FreeOK_last; eauto|].
    eapply nth_error_some_lt; eauto. }
  split; [eauto|]. split; [exists n1; auto|]. split; [exists n1; split; [exact X|lia]|].
  split; [rewrite live_iff, ST, Nat.eqb_refl by exact Hn; intros ([= E] & _); lia|].
  split; [exact L|]. split; [|split; [exact FO'|]].
  - intros j m Hm. destruct (S j m Hm) as (m' & Hm' & (P1 & P2 & P3 & P4 & P5) & C). exists m'.
    split; [exact Hm'|]. do 5 (split; [assumption|]). intros Hj. apply Nat.eqb_neq in Hj. rewrite Hj in C.
    destruct C as (E & Dd). split; [exact E|]. intros G. destruct Dd as [Dd|(El & _)]; [exact Dd|].
    specialize (Hl _ _ El Hm). lia.
  - apply AllocOK_intro; [| |eauto].
    + apply (StampsOK_free _ _ _ _ x (retire (gen x)) (AllocOK_stamps _ OK)); sn; auto.
      * now apply live_iff.
      * now rewrite ST, Nat.eqb_refl.
      * intros j Hj. rewrite ST by exact Hn. now apply Nat.eqb_neq in Hj as ->.
    + intros j m' Hm'. destruct (nth_error_lt _ (nodes a) j) as (m & Hm).
      { rewrite <- L. eapply nth_error_some_lt; eauto. }
      destruct (S j m Hm) as (m'' & Hm'' & _ & C). rewrite Hm' in Hm''. injection Hm'' as <-.
      destruct (Nat.eqb j (idx x)).
      * destruct C as (-> & o & ->). split; [lia|intros (? & ?); discriminate].
      * destruct C as (-> & [->|(El & o & ->)]); [now apply (HD j)|]. specialize (Hl _ _ El Hm).
        split; [lia|intros (? & ?); discriminate].
Qed.

Theorem write_payload_spec : forall w x v FL, AllocOK w -> FreeOK (ar w) FL -> live (ar w) x ->
  exists a' old n, write_payload x v (ar w) = (a', Ok old) /\
    node_at (ar w) x n /\ data n = Data old /\ node_at a' x (set_data (Data v) n) /\
    (forall j, j <> idx x -> nth_error (nodes a') j = nth_error (nodes (ar w)) j) /\
    length (nodes a') = length (nodes (ar w)) /\ ffree a' = ffree (ar w) /\ lfree a' = lfree (ar w) /\
    FreeOK a' FL /\
    AllocOK (mkWorld a' (issued w) (removed w) (dropped w ++ [old])).
Proof.
  intros w x v FL OK FO (n & Hn & Hs & Hg). unfold node_at in *.
  destruct (proj1 (al_data _ OK _ _ Hn)) as (old & Hd); [lia|].
  set (a := ar w) in *. set (f := set_data (Data v) n).
  set (a' := set_nodes (list_set (idx x) f (nodes a)) a).
  assert (SS : slot_set a a' (idx x) f) by (now apply (slot_set_upd a a' _ n)).
  destruct (slot_set_stamp_at _ _ _ _ SS) as (SX & SO).
  assert (SA : forall j, stamp_at a' j = stamp_at a j).
  { intros j. destruct (Nat.eq_dec j (idx x)) as [->|E]; [|auto].
    rewrite SX. symmetry. apply stamp_at_some. eauto. }
  assert (FO' : FreeOK a' FL).
  { pose proof (FreeOK_not_live a FL _ n FO Hn) as NI. destruct FO as (Hseg & Hlast & ND & Hreus).
    apply (FreeOK_live_slot a a' (idx x) f); auto; [cbn|apply NI]; lia. }
  exists a', old, n. split.
  { unfold write_payload, rdi, updi. erewrite bind_ok by (apply rd_ok; eassumption).
    rewrite Hd. erewrite bind_ok by (apply upd_set; eassumption). reflexivity. }
  split; [exact Hn|]. split; [exact Hd|]. split; [apply SS|]. split; [apply SS|].
  split; [apply length_list_set|]. split; [reflexivity|]. split; [reflexivity|]. split; [exact FO'|].
  apply AllocOK_kept; eauto. apply (slot_set_DataOK _ _ _ _ SS (al_data _ OK)).
  cbn. split; [eauto|lia].
Qed.

Lemma FreeOK_empty : FreeOK empty_arena [].
Proof.
  unfold FreeOK. cbn. repeat split; auto; try constructor; try tauto.
  intros (n & Hn & _). destruct i; discriminate.
Qed.

Lemma AllocOK_empty : forall drp, AllocOK (mkWorld empty_arena [] [] drp).
Proof.
  intros drp. constructor; sn; cbn [empty_arena nodes].
  - intros [|i] n H; discriminate.
  - intros [|i] n H; discriminate.
  - constructor.
  - intros x [].
  - intros [|i] n H; discriminate.
  - intros x. cbn. tauto.
  - exists []. apply FreeOK_empty.
Qed.

Theorem AllocOK_init : AllocOK init.
Proof. apply AllocOK_empty. Qed.

Theorem clear_spec : forall w,
  clear (ar w) = (empty_arena, Ok (stored (ar w))) /\
  AllocOK (mkWorld empty_arena [] [] (dropped w ++ stored (ar w))).
Proof. intros w. split; [reflexivity|apply AllocOK_empty]. Qed.

Definition pl (n : node) : list N := match data n with Data v => [v] | NextFree _ => [] end.

Lemma payloads_cons : forall n l, payloads (n :: l) = pl n ++ payloads l.
Proof. reflexivity. Qed.

Lemma payloads_same : forall l l', length l' = length l ->
  (forall j m m', nth_error l j = Some m -> nth_error l' j = Some m' -> pl m' = pl m) ->
  payloads l' = payloads l.
Proof.
  induction l as [|n l IH]; intros [|n' l'] L H; try discriminate; auto.
  rewrite !payloads_cons. f_equal.
  - apply (H 0%nat); reflexivity.
  - apply IH; [cbn in L; lia|]. intros j m m' Hm Hm'. apply (H (S j)); auto.
Qed.

(* the payloads of two arenas that differ in slot [i] only *)
Lemma stored_slot : forall a a' i n n', length (nodes a') = length (nodes a) ->
  nth_error (nodes a) i = Some n -> nth_error (nodes a') i = Some n' ->
  (forall j m m', j <> i -> nth_error (nodes a) j = Some m -> nth_error (nodes a') j = Some m' ->
     pl m' = pl m) ->
  Permutation (pl n' ++ stored a) (pl n ++ stored a').
Proof.
  intros a a'. unfold stored. generalize (nodes a) (nodes a'). clear a a'.
  induction l as [|h l IH]; intros [|h' l'] i n n' L Hn Hn' H; try discriminate.
  - destruct i; discriminate.
  - rewrite !payloads_cons. destruct i as [|i]; cbn in Hn, Hn'.
    + injection Hn as <-. injection Hn' as <-. rewrite (payloads_same l l').
      * apply Permutation_app_swap_app.
      * cbn in L. lia.
      * intros j m m' Hm Hm'. apply (H (S j)); auto.
    + rewrite (H 0%nat h h') by auto. rewrite !(Permutation_app_swap_app _ (pl h)).
      apply Permutation_app_head. apply (IH l' i); auto.
      intros j m m' Hj Hm Hm'. apply (H (S j)); auto.
Qed.

Lemma payloads_snoc : forall l n, payloads (l ++ [n]) = payloads l ++ pl n.
Proof. intros. unfold payloads. rewrite flat_map_app. cbn. now rewrite app_nil_r. Qed.

Lemma pl_removed : forall w j m, AllocOK w -> nth_error (nodes (ar w)) j = Some m -> stamp m < 0 -> pl m = [].
Proof.
  intros w j m OK Hm G. unfold pl. destruct (data m) as [u|o] eqn:E; auto.
  assert (0 <= stamp m) by (apply (al_data _ OK _ _ Hm); eauto). lia.
Qed.

Lemma stored_same_shape : forall a a', same_shape a a' -> stored a' = stored a.
Proof.
  intros a a' H. unfold stored. apply payloads_same; [apply H|].
  intros j m m' Hm Hm'. destruct H as (_ & _ & _ & N). destruct (N _ _ Hm) as (m2 & Hm2 & _ & D).
  rewrite Hm' in Hm2. injection Hm2 as <-. unfold pl. now rewrite D.
Qed.

Lemma new_node_stored : forall w v a' x, AllocOK w -> new_node false v (ar w) = (a', Ok x) ->
  Permutation (v :: stored (ar w)) (stored a').
Proof.
  intros w v a' x OK Hrun. destruct (al_free _ OK) as (FL & FO).
  destruct (new_node_spec w v FL OK FO) as (a2 & x2 & Hrun2 & _ & _ & X & O & C & _).
  rewrite Hrun in Hrun2. injection Hrun2 as <- <-. unfold node_at in X.
  destruct FL as [|i FL'].
  - destruct C as (Ei & _). unfold stored.
    assert (nodes a' = nodes (ar w) ++ [fresh_node (gen x) (Data v)]) as ->.
    { apply list_ext_nth. intros j. destruct (Nat.eq_dec j (idx x)) as [->|Hj].
      - rewrite X, Ei. symmetry. apply nth_snoc_eq.
      - rewrite O by auto. symmetry. apply nth_snoc_neq. congruence. }
    rewrite payloads_snoc. apply Permutation_cons_append.
  - destruct C as (Ei & (n & Hn & G) & L & _). unfold node_at in Hn.
    rewrite <- (app_nil_l (stored a')), <- (pl_removed w _ _ OK Hn G).
    apply (stored_slot _ _ (idx x) _ _ L Hn X).
    intros j m m' Hj Hm Hm'. rewrite O in Hm' by auto. congruence.
Qed.

Lemma free_node_stored : forall w x FL a' v, AllocOK w -> FreeOK (ar w) FL -> live (ar w) x ->
  free_node false x (ar w) = (a', Ok (Some v)) -> Permutation (stored (ar w)) (v :: stored a').
Proof.
  intros w x FL a' v OK FO LV Hrun.
  destruct (free_node_spec w x FL OK FO LV)
    as (a2 & v2 & Hrun2 & (n & Hn & Hd) & _ & (n' & Hn' & G') & _ & L & P & _ & OK').
  rewrite Hrun in Hrun2. injection Hrun2 as <- <-. unfold node_at in *.
  assert (Q : Permutation (pl n' ++ stored (ar w)) (pl n ++ stored a')).
  { apply (stored_slot _ _ (idx x) _ _ L Hn Hn').
    intros j m m' Hj Hm Hm'. destruct (P _ _ Hm) as (m2 & Hm2 & _ & _ & _ & _ & _ & K).
    rewrite Hm' in Hm2. injection Hm2 as <-. destruct (K Hj) as (Es & Ed).
    destruct (Z_le_gt_dec 0 (stamp m)).
    - unfold pl. now rewrite Ed.
    - rewrite (pl_removed w _ _ OK Hm) by lia. apply (pl_removed _ j m' OK'); sn; auto. lia. }
  rewrite (pl_removed _ _ _ OK' Hn' G') in Q. unfold pl in Q. rewrite Hd in Q. exact Q.
Qed.

Lemma write_payload_stored : forall w x v a' old, AllocOK w -> live (ar w) x ->
  write_payload x v (ar w) = (a', Ok old) -> Permutation (v :: stored (ar w)) (old :: stored a').
Proof.
  intros w x v a' old OK LV Hrun. destruct (al_free _ OK) as (FL & FO).
  destruct (write_payload_spec w x v FL OK FO LV) as (a2 & old2 & n & Hrun2 & Hn & Hd & Hn' & O & L & _).
  rewrite Hrun in Hrun2. injection Hrun2 as <- <-. unfold node_at in *.
  assert (Q : Permutation (pl (set_data (Data v) n) ++ stored (ar w)) (pl n ++ stored a')).
  { apply (stored_slot _ _ (idx x) _ _ L Hn Hn').
    intros j m m' Hj Hm Hm'. rewrite O in Hm' by auto. congruence. }
  unfold pl in Q. cbn [data set_data] in Q. rewrite Hd in Q. exact Q.
Qed.

Definition nd_links_none (a : arena) (y : nid) : Prop :=
  exists n, node_at a y n /\
    parent n = None /\ prev n = None /\ next n = None /\ first n = None /\ last n = None.

Lemma Forall2_length' : forall A B (R : A -> B -> Prop) l1 l2, Forall2 R l1 l2 -> length l1 = length l2.
Proof. induction 1; cbn; auto. Qed.

Theorem free_all_spec : forall D w FL, AllocOK w -> FreeOK (ar w) FL ->
  (forall y, In y D -> live (ar w) y) -> NoDup (map idx D) ->
  exists a' olds, free_all false D (ar w) = (a', Ok olds) /\
    length olds = length D /\
    FreeOK a' (FL ++ map idx (filter (fun y => gen y <? i16_max) D)) /\
    AllocOK (mkWorld a' (issued w) (removed w ++ D) (dropped w ++ olds)) /\
    (forall y, In y D -> slot_removed a' y /\ nd_links_none a' y) /\
    (forall j n, ~ In j (map idx D) -> nth_error (nodes (ar w)) j = Some n ->
       exists n', nth_error (nodes a') j = Some n' /\ same_links n n' /\
                  stamp n' = stamp n /\ (0 <= stamp n -> data n' = data n)) /\
    (* further: the dropped payloads are those of D, in order; the length is kept;
       nothing is lost or duplicated *)
    Forall2 (fun y v => exists n, node_at (ar w) y n /\ data n = Data v) D olds /\
    length (nodes a') = length (nodes (ar w)) /\
    Permutation (olds ++ stored a') (stored (ar w)).
Proof.
  induction D as [|y D IH]; intros w FL OK FO HL ND.
  - exists (ar w), []. cbn [free_all map filter length]. rewrite !app_nil_r.
    split; [reflexivity|]. split; [reflexivity|]. split; [exact FO|]. split; [destruct w; exact OK|].
    split; [intros y []|]. split.
    { intros j n _ Hn. exists n. split; auto. split; [apply same_links_refl|]. auto. }
    split; [constructor|]. split; [reflexivity|]. apply Permutation_refl.
  - cbn [map] in ND. inversion ND as [|? ? NIy ND']; subst.
    assert (LVy : live (ar w) y) by (apply HL; now left).
    destruct (free_node_spec w y FL OK FO LVy)
      as (a1 & v & Hrun & (n & Hn & Hd) & _ & (n1 & Hn1 & G1) & _ & L1 & P1 & FO1 & OK1).
    pose proof (free_node_stored w y FL a1 v OK FO LVy Hrun) as Pv.
    set (a2 := set_nodes (list_set (idx y) (clear_links n1) (nodes a1)) a1).
    assert (Hupd : updi y clear_links a1 = (a2, Ok tt)) by (apply upd_set; exact Hn1).
    assert (SS : same_shape a1 a2) by (eapply shape_updi_clear_links; eauto).
    destruct (slot_set_upd a1 a2 (idx y) n1 (clear_links n1) Hn1 eq_refl) as (X2 & O2).
    (* the other slots after this round, among them those of the nodes still to be freed *)
    assert (K2 : forall j m, j <> idx y -> nth_error (nodes (ar w)) j = Some m ->
              exists m2, nth_error (nodes a2) j = Some m2 /\ same_links m m2 /\
                         stamp m2 = stamp m /\ (0 <= stamp m -> data m2 = data m)).
    { intros j m Hj Hm. rewrite O2 by exact Hj.
      destruct (P1 _ _ Hm) as (m1 & Hm1 & B1 & B2 & B3 & B4 & B5 & K).
      exists m1. split; [exact Hm1|]. split; [repeat split; assumption|]. apply K, Hj. }
    assert (NE : forall z, In z D -> idx z <> idx y).
    { intros z Hz E. apply NIy. rewrite <- E. now apply in_map. }
    destruct (IH (mkWorld a2 (issued w) (removed w ++ [y]) (dropped w ++ [v]))
                 (FL ++ if gen y <? i16_max then [idx y] else []))
      as (a' & olds & Hrun' & Hlen & FO' & OK' & R' & K' & F2 & L' & Perm'); sn.
    { apply (AllocOK_same_shape _ a2 OK1 SS). }
    { apply (FreeOK_same_shape a1 a2 _ FO1 SS). }
    { intros z Hz. destruct (HL z (or_intror Hz)) as (m & Hm & Es & G).
      destruct (K2 _ m (NE z Hz) Hm) as (m2 & Hm2 & _ & E2 & _).
      exists m2. split; [exact Hm2|]. split; [congruence|exact G]. }
    { exact ND'. }
    exists a', (v :: olds).
    split; [|split; [|split; [|split; [|split; [|split; [|split; [|split]]]]]]].
    + cbn [free_all]. erewrite bind_ok by exact Hrun. erewrite bind_ok by exact Hupd.
      erewrite bind_ok by exact Hrun'. reflexivity.
    + cbn. congruence.
    + rewrite <- app_assoc in FO'. cbn [filter]. destruct (gen y <? i16_max); exact FO'.
    + rewrite <- !app_assoc in OK'. exact OK'.
    + intros z [<-|Hz]; [|auto].
      destruct (K' (idx y) _ NIy X2) as (n' & Hn' & (A1 & A2 & A3 & A4 & A5) & Es & _).
      split; exists n'; (split; [exact Hn'|]); [rewrite Es; exact G1|repeat split; assumption].
    + intros j m Hj Hm. cbn [map In] in Hj.
      destruct (K2 j m) as (m2 & Hm2 & S2 & E2 & D2); [intros ->; apply Hj; now left|exact Hm|].
      destruct (K' j m2) as (m' & Hm' & S' & E' & D'); [intros H; apply Hj; now right|exact Hm2|].
      exists m'. split; [exact Hm'|]. split; [eapply same_links_trans; eauto|].
      split; [congruence|]. intros G. rewrite D' by lia. auto.
    + constructor; [exists n; auto|].
      eapply Forall2_impl_in; [|exact F2]. cbn beta. intros z u Hz (m2 & Hm2 & Hd2).
      destruct (HL z (or_intror Hz)) as (m & Hm & Es & G).
      destruct (K2 _ m (NE z Hz) Hm) as (m2' & Hm2' & _ & _ & Ed). unfold node_at in *.
      rewrite Hm2 in Hm2'. injection Hm2' as <-. exists m. split; [exact Hm|]. rewrite <- Ed by lia. exact Hd2.
    + rewrite L'. cbn. rewrite length_list_set. exact L1.
    + rewrite Pv, <- (stored_same_shape a1 a2 SS), <- Perm'. reflexivity.
Qed.

Theorem is_removed_correct : forall w x, AllocOK w -> In x (issued w) ->
  id_is_removed x (ar w) = Ok (if in_dec nid_eq_dec x (removed w) then true else false).
Proof.
  intros w x OK Hx. destruct (al_issued _ OK _ Hx) as (n & Hn & G0 & _). unfold node_at in Hn.
  unfold id_is_removed. rewrite Hn. f_equal.
  destruct (in_dec nid_eq_dec x (removed w)) as [Hr|Hr].
  - apply (al_removed _ OK) in Hr. destruct Hr as (_ & NL).
    destruct (Z.eqb_spec (stamp n) (gen x)) as [E|E]; auto.
    exfalso. apply NL. exists n. auto.
  - destruct (Z.eqb_spec (stamp n) (gen x)) as [E|E]; auto.
    exfalso. apply Hr. apply (al_removed _ OK). split; auto.
    intros (m & Hm & Es & _). unfold node_at in Hm. congruence.
Qed.

Theorem issued_live_or_removed : forall w x, AllocOK w -> In x (issued w) ->
  live (ar w) x \/ In x (removed w).
Proof.
  intros w x OK Hx. destruct (live_dec (ar w) x) as [L|NL]; auto.
  right. apply (al_removed _ OK). auto.
Qed.

(* a removed id never comes back, an id is never both *)
Theorem removed_not_live : forall w x, AllocOK w -> In x (removed w) -> ~ live (ar w) x.
Proof. intros w x OK Hx. apply (al_removed _ OK) in Hx. tauto. Qed.

Theorem live_issued : forall w x, AllocOK w -> live (ar w) x -> In x (issued w).
Proof.
  intros w x OK (n & Hn & Es & G). pose proof (al_live _ OK _ _ Hn) as H.
  rewrite Es in H. destruct x. apply H. exact G.
Qed.

(* except for clear, a step only ever appends to the two ghost lists *)
Lemma ghost_monotone : forall w o, o <> OClear ->
  incl (issued w) (issued (fst (step false w o))) /\ incl (removed w) (removed (fst (step false w o))).
Proof.
  intros w o Ho. destruct o as [v|p v|k [|] a b|x|x|x|x v| |k]; cbn [step]; try congruence.
  all: try match goal with |- context [match ?m with _ => _ end] => destruct m as [a' [r|c|]] end.
  all: try destruct r; cbn; auto using incl_refl, incl_appl.
Qed.

Theorem removed_monotone : forall w o, o <> OClear -> incl (removed w) (removed (fst (step false w o))).
Proof. intros w o Ho. apply (ghost_monotone w o Ho). Qed.

Theorem issued_monotone : forall w o, o <> OClear -> incl (issued w) (issued (fst (step false w o))).
Proof. intros w o Ho. apply (ghost_monotone w o Ho). Qed.

(* payload accounting: every payload ever stored is in exactly one place, still stored or dropped *)

Definition PayOK (w : world) (ever : list N) : Prop := Permutation ever (dropped w ++ stored (ar w)).

Lemma PayOK_init : PayOK init [].
Proof. unfold PayOK. cbn. constructor. Qed.

(* a step that stores the payloads [news] and drops [olds] *)
Lemma PayOK_step : forall w ever a' iss' rem' drp' news olds, PayOK w ever ->
  drp' = dropped w ++ olds -> Permutation (news ++ stored (ar w)) (olds ++ stored a') ->
  PayOK (mkWorld a' iss' rem' drp') (news ++ ever).
Proof.
  intros w ever a' iss' rem' drp' news olds P -> Q. unfold PayOK in *. sn.
  rewrite P, <- app_assoc, <- Q. apply Permutation_app_swap_app.
Qed.

Lemma PayOK_same_shape : forall w ever a', PayOK w ever -> same_shape (ar w) a' ->
  PayOK (mkWorld a' (issued w) (removed w) (dropped w)) ever.
Proof. intros w ever a' P H. unfold PayOK in *. sn. now rewrite (stored_same_shape _ _ H). Qed.

Lemma world_eta : forall w, mkWorld (ar w) (issued w) (removed w) (dropped w) = w.
Proof. now intros []. Qed.

(* What the invariant needs of an operation that relinks and only then frees: when a relinking
   step fails, a same-shaped arena is left behind and the invariant holds with the old ghost lists;
   [P] is the claim on success. *)
Definition alloc_post {B} (w : world) (P : B -> Prop) (a' : arena) (r : res B) : Prop :=
  match r with
  | Ok y => P y
  | _ => AllocOK (mkWorld a' (issued w) (removed w) (dropped w))
  end.

Lemma alloc_bind : forall A B (m : M A) (k : A -> M B) w a a' r (P : B -> Prop),
  AllocOK w -> shape_pres m -> same_shape (ar w) a ->
  (forall a1 x, same_shape (ar w) a1 -> m a = (a1, Ok x) -> k x a1 = (a', r) -> alloc_post w P a' r) ->
  bind m k a = (a', r) -> alloc_post w P a' r.
Proof.
  intros A B m k w a a' r P OK SP SS K H. unfold bind in H.
  destruct (m a) as [a1 [x|c|]] eqn:E.
  - eapply K; [eapply same_shape_trans; [exact SS|eapply SP; exact E]|reflexivity|exact H].
  - injection H as <- <-. apply AllocOK_same_shape; [exact OK|]. eapply same_shape_trans; eauto.
  - injection H as <- <-. apply AllocOK_same_shape; [exact OK|]. eapply same_shape_trans; eauto.
Qed.

(* remove: whatever happens the invariant is kept; on success exactly x is removed *)
Lemma remove_alloc : forall w x a' r, AllocOK w -> live (ar w) x -> remove false x (ar w) = (a', r) ->
  match r with
  | Ok old => exists v, old = Some v /\ slot_removed a' x /\
                AllocOK (mkWorld a' (issued w) (removed w ++ [x]) (dropped w ++ [v]))
  | _ => AllocOK (mkWorld a' (issued w) (removed w) (dropped w))
  end.
Proof.
  intros w x a' r OK LV. pose proof (same_shape_refl (ar w)) as SS0. unfold remove.
  eapply (alloc_bind _ _ _ _ w (ar w) a' r); auto. { cbn. apply shape_ret. }
  intros a1 [] SS1 _. cbn beta.
  apply alloc_bind; auto with shape.
  intros a2 n SS2 _. cbn beta zeta.
  apply alloc_bind; auto with shape.
  intros a3 [] SS3 _. cbn beta.
  apply alloc_bind; auto with shape.
  intros a4 [] SS4 _. cbn beta.
  apply alloc_bind; auto with shape.
  intros a5 [] SS5 _. cbn beta. intros H.
  set (w5 := mkWorld a5 (issued w) (removed w) (dropped w)).
  assert (OK5 : AllocOK w5) by (now apply AllocOK_same_shape).
  destruct (al_free _ OK5) as (FL & FO).
  assert (LV5 : live (ar w5) x) by (apply (live_same_shape (ar w) a5 x SS5); exact LV).
  destruct (free_node_spec w5 x FL OK5 FO LV5)
    as (a6 & v & Hrun & _ & _ & SR & _ & _ & _ & _ & OK6).
  cbn [ar issued removed dropped w5] in *.
  erewrite bind_ok in H by exact Hrun.
  pose proof SR as (m & Hm & _). unfold rdi in H. erewrite bind_ok in H by (apply rd_ok; exact Hm).
  cbn in H. injection H as <- <-.
  cbn. exists v. auto.
Qed.

(* remove_subtree, given that the collected subtree consists of live nodes in distinct slots
   (a fact about the forest structure, established elsewhere) *)
Lemma remove_subtree_alloc : forall w x a' r, AllocOK w ->
  (forall a1 D, detach false x (ar w) = (a1, Ok tt) -> descendants x a1 = Ok D ->
     (forall y, In y D -> live a1 y) /\ NoDup (map idx D)) ->
  remove_subtree false x (ar w) = (a', r) ->
  match r with
  | Ok (ids, olds) => AllocOK (mkWorld a' (issued w) (removed w ++ ids) (dropped w ++ olds))
  | _ => AllocOK (mkWorld a' (issued w) (removed w) (dropped w))
  end.
Proof.
  intros w x a' r OK HD. pose proof (same_shape_refl (ar w)) as SS0. unfold remove_subtree.
  eapply (alloc_bind _ _ _ _ w (ar w) a' r); auto with shape.
  intros a1 [] SS1 Hdet. cbn beta.
  apply alloc_bind; auto with shape.
  intros a2 D SS2 Hdesc. cbn beta. intros H.
  unfold lift in Hdesc. injection Hdesc as <- Hdesc.
  destruct (HD _ _ Hdet Hdesc) as (HL & ND).
  set (w1 := mkWorld a1 (issued w) (removed w) (dropped w)).
  assert (OK1 : AllocOK w1) by (now apply AllocOK_same_shape).
  destruct (al_free _ OK1) as (FL & FO).
  destruct (free_all_spec D w1 FL OK1 FO HL ND) as (a3 & olds & Hrun & _ & _ & OK3 & _).
  cbn [ar issued removed dropped w1] in *.
  erewrite bind_ok in H by exact Hrun. cbn in H. injection H as <- <-.
  exact OK3.
Qed.

(* append_value either fails before allocating (arena untouched) or allocates exactly like new_node
   and then only relinks *)
Lemma append_value_arena : forall w p v a' r, AllocOK w -> append_value false p v (ar w) = (a', r) ->
  (a' = ar w /\ match r with Ok _ => False | _ => True end) \/
  exists a1 y, new_node false v (ar w) = (a1, Ok y) /\ same_shape a1 a' /\
               match r with Ok z => z = y | _ => True end.
Proof.
  intros w p v a' r OK H. destruct (al_free _ OK) as (FL & FO).
  destruct (new_node_spec w v FL OK FO) as (a1 & y & Hrun & _).
  unfold append_value, rdi, rd in H. unfold bind at 1 in H.
  destruct (nth_error (nodes (ar w)) (idx p)) as [np|]; [|left; now injection H as <- <-].
  unfold bind at 1 in H. destruct (node_is_removed np); cbn in H; [left; now injection H as <- <-|].
  rewrite (bind_ok _ _ _ _ _ _ _ Hrun) in H. right. exists a1, y. split; [exact Hrun|]. split.
  - revert H. apply shape_bind; [apply shape_insert_last_unchecked|intros; apply shape_ret].
  - apply bind_inv in H. destruct H as [(a2 & [] & _ & H)|[(c & _ & ->)|(_ & ->)]]; auto.
    now injection H as _ <-.
Qed.

Lemma append_value_alloc : forall w p v a' x, AllocOK w ->
  append_value false p v (ar w) = (a', Ok x) ->
  ~ In x (issued w) /\ live a' x /\
  AllocOK (mkWorld a' (issued w ++ [x]) (removed w) (dropped w)).
Proof.
  intros w p v a' x OK H. destruct (al_free _ OK) as (FL & FO).
  destruct (append_value_arena w p v a' (Ok x) OK H) as [(_ & [])|(a1 & y & H1 & SS & ->)].
  destruct (new_node_spec w v FL OK FO) as (a1' & y' & Hrun & NI & LV & _ & _ & _ & OK1).
  rewrite H1 in Hrun. injection Hrun as <- <-.
  split; [exact NI|]. split; [now apply (live_same_shape a1 a' y SS)|].
  apply (AllocOK_same_shape _ a' OK1 SS).
Qed.

(* side conditions of a step that are facts about the forest structure (not about allocation):
   append_value returns normally; remove_subtree collects live nodes in distinct slots *)
Definition step_side_ok (w : world) (o : op) : Prop :=
  match o with
  | OAppendValue p v => exists a' x, append_value false p v (ar w) = (a', Ok x)
  | ORemoveSubtree x =>
      forall a1 D, detach false x (ar w) = (a1, Ok tt) -> descendants x a1 = Ok D ->
        (forall y, In y D -> live a1 y) /\ NoDup (map idx D)
  | _ => True
  end.

Definition relinks (o : op) : bool :=
  match o with OInsert _ _ _ _ | ODetach _ | OReserve _ => true | _ => false end.

Lemma step_same_shape : forall w o, relinks o = true ->
  exists a', same_shape (ar w) a' /\
             fst (step false w o) = mkWorld a' (issued w) (removed w) (dropped w).
Proof.
  intros w o Ho. destruct o as [v|p v|k [|] a b|x|x|x|x v| |k]; try discriminate Ho; cbn [step].
  4: { exists (ar w). split; [apply same_shape_refl|now destruct w]. }
  all: match goal with |- context [match ?m with _ => _ end] => destruct m as [a' r] eqn:E end; exists a'.
  - apply shape_checked_insert in E. split; [exact E|]. now destruct r as [[|e]|c|].
  - apply shape_unchecked_insert in E. split; [exact E|]. now destruct r as [[]|c|].
  - apply shape_detach in E. split; [exact E|]. now destruct r as [[]|c|].
Qed.

Theorem AllocOK_step : forall w o, AllocOK w -> valid_op (ar w) o -> step_side_ok w o ->
  AllocOK (fst (step false w o)).
Proof.
  intros w o OK V S. destruct (relinks o) eqn:Ro.
  { destruct (step_same_shape w o Ro) as (a' & SS & ->). now apply AllocOK_same_shape. }
  destruct o; try discriminate Ro; cbn [step valid_op step_side_ok] in *.
  - destruct (al_free _ OK) as (FL & FO).
    destruct (new_node_spec w v FL OK FO) as (a' & x & Hrun & _ & _ & _ & _ & _ & OK').
    rewrite Hrun. exact OK'.
  - destruct S as (a' & x & E). rewrite E. cbn. eapply append_value_alloc; eauto.
  - destruct (remove false x (ar w)) as [a' r] eqn:E.
    pose proof (remove_alloc w x a' r OK V E) as H. destruct r as [old|c|]; cbn; auto.
    destruct H as (v & -> & _ & H). exact H.
  - destruct (remove_subtree false x (ar w)) as [a' r] eqn:E.
    pose proof (remove_subtree_alloc w x a' r OK S E) as H. destruct r as [[ids olds]|c|]; cbn; auto.
  - destruct (al_free _ OK) as (FL & FO).
    destruct (write_payload_spec w x v FL OK FO V) as (a' & old & n & Hrun & _ & _ & _ & _ & _ & _ & _ & _ & OK').
    rewrite Hrun. exact OK'.
  - cbn. apply AllocOK_empty.
Qed.

Fixpoint side_hist (w : world) (ops : list op) : Prop :=
  match ops with
  | [] => True
  | o :: r => step_side_ok w o /\ side_hist (fst (step false w o)) r
  end.

Theorem AllocOK_run : forall ops w, AllocOK w -> valid_hist false w ops -> side_hist w ops ->
  AllocOK (run false ops w).
Proof.
  induction ops as [|o r IH]; intros w OK V S; cbn in *; auto.
  destruct V as (V1 & V2). destruct S as (S1 & S2). apply IH; auto. now apply AllocOK_step.
Qed.

Print Assumptions new_node_spec.
Print Assumptions free_node_spec.
Print Assumptions free_all_spec.
Print Assumptions is_removed_correct.
Print Assumptions AllocOK_step.
