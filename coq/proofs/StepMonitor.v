(* StepMonitor.v — the step checker [check_step] of Monitor.v is silent on every valid step of the
   model: as long as the implementation behaves like the model, the correspondence check can
   never raise a false alarm.
   The forest [abs a] that the checker computes from an arena is itself a forest the arena
   represents.  So the refinement theorems are read with F := abs a, and the forest after the
   step is the documented [f_op (abs a)] that clause 20 compares [abs a'] with; the executable
   impossibility test is the declarative one read over [abs a]; what remains are frame facts
   about single slots: those of new_node and write_payload come from their specifications, the
   survivors of a removal are dealt with by the theorems of AllocProps.v. *)
From IT Require Import Props.
From IT.proofs Require Import Layer1 ReprBase StateProps.
From IT.proofs Require ReprInsert AllocProofs AllocProps Assembly MonitorSound.
From Coq Require Import Lia.
Local Open Scope nat_scope.

Lemma same_list_refl : forall l, same_list l l = true.
Proof.
  intros l. unfold same_list. rewrite Nat.eqb_refl. cbn [andb].
  induction l as [|x l IH]; cbn [combine forallb fst snd]; auto.
  rewrite nid_eqb_refl. exact IH.
Qed.

Lemma chains_sub_incl : forall t1 t2, (forall c, In c t1 -> In c t2) -> chains_sub t1 t2 = true.
Proof.
  intros t1 t2 H. unfold chains_sub. apply forallb_forall. intros c Hc.
  apply existsb_exists. exists c. split; auto. apply same_list_refl.
Qed.

Lemma feq_refl : forall F, feq F F.
Proof. intros F. split; intros; tauto. Qed.

Lemma forest_eqb_feq : forall dom F G, feq F G -> forest_eqb dom F G = true.
Proof.
  intros dom F G [HK HT]. unfold forest_eqb.
  rewrite !andb_true_iff. split; [split|].
  - apply forallb_forall. intros p _. rewrite HK. apply same_list_refl.
  - apply chains_sub_incl. intros c. apply HT.
  - apply chains_sub_incl. intros c. apply HT.
Qed.

Lemma not_live_b : forall a x, ~ live a x -> live_b a x = false.
Proof.
  intros a x H. destruct (live_b a x) eqn:E; auto.
  apply MonitorSound.ms_live_b in E. contradiction.
Qed.

Lemma kids_of_repr : forall a F p, Repr a F -> live a p -> kids_of a p = kidsf F p.
Proof.
  intros a F p R L. unfold kids_of. rewrite node_of_nd by (now apply live_inr).
  rewrite (walk_kids a F R p L). reflexivity.
Qed.

Theorem abs_kids_eq : forall a F, Repr a F -> forall p, kidsf (abs a) p = kidsf F p.
Proof.
  intros a F R p. unfold abs. cbn [kidsf]. destruct (live_b a p) eqn:E.
  - apply kids_of_repr; [exact R | now apply MonitorSound.ms_live_b].
  - destruct (kidsf F p) eqn:K; auto.
    rewrite live_b_true in E; [discriminate|]. apply (r_owner _ _ R). rewrite K. discriminate.
Qed.

(* clause 22: read from either end, a children list is the same *)
Lemma kids_rev_of_repr : forall a F p, Repr a F -> live a p -> kids_rev_of a p = kidsf F p.
Proof.
  intros a F p R L. unfold kids_rev_of. rewrite node_of_nd by (now apply live_inr).
  destruct (ends_of a F R p L) as [_ E]. rewrite E.
  destruct (r_kids _ _ R p) as [D N]. pose proof (kids_bound a F R p) as B.
  destruct (last_error (kidsf F p)) as [y|] eqn:EL.
  - apply last_error_split in EL. destruct EL as [A EA]. rewrite EA in D, B |- *.
    pose proof (dseg_prev_path _ _ _ _ _ D) as P.
    rewrite (is_path_walk a prev _ y _ P) by (rewrite rev_length; lia).
    now rewrite rev_involutive.
  - apply last_error_None in EL. rewrite EL. reflexivity.
Qed.

Lemma repr_both_views : forall a F, Repr a F -> both_views_agree a = true.
Proof.
  intros a F R. unfold both_views_agree. apply forallb_forall. intros [x n] H. cbn [fst].
  destruct (live_slot_live _ _ _ H) as [L _].
  rewrite (kids_of_repr a F x R L), (kids_rev_of_repr a F x R L). apply same_list_refl.
Qed.

Lemma top_chain_walk : forall a F c, Repr a F -> In c (tops F) ->
  exists x B, c = x :: B /\ live a x /\ parent (nd a x) = None /\ prev (nd a x) = None /\
    walk_b next (S (length (nodes a))) a (Some x) = Some c.
Proof.
  intros a F c R Hc. destruct (r_tops _ _ R c Hc) as (NE & D & N).
  destruct c as [|x B]; [congruence|]. exists x, B. split; auto.
  assert (L : live a x) by (eapply top_live; eauto; now left).
  pose proof D as D'. apply dseg_cons in D'. destruct D' as (_ & P & V & _).
  repeat split; auto.
  apply is_path_walk; [eapply dseg_next_path; eauto|].
  assert (length (x :: B) <= length (nodes a)); [|lia].
  apply (live_list_bound a); auto. intros y Hy. eapply top_live; eauto.
Qed.

Lemma root_head_chain : forall a F x, Repr a F -> live a x ->
  parent (nd a x) = None -> prev (nd a x) = None ->
  exists c, In c (tops F) /\ hd_error c = Some x.
Proof.
  intros a F x R L P V. destruct (parent_top a F R x L P) as (c & Hc & Hx).
  exists c. split; auto. apply in_split in Hx. destruct Hx as (A & B & ->).
  assert (HS : sibs F None (A ++ x :: B)) by exact Hc.
  destruct (sibs_mid a F R _ _ _ _ HS) as [V' _]. rewrite V in V'. symmetry in V'.
  apply last_error_None in V'. subst A. reflexivity.
Qed.

Lemma in_tops_of : forall a c, In c (tops_of a) <->
  exists x n, In (x, n) (live_slots a) /\ parent n = None /\ prev n = None /\
              walk_b next (S (length (nodes a))) a (Some x) = Some c.
Proof.
  intros a c. unfold tops_of. rewrite in_flat_map. split.
  - intros ([x n] & H & Hc). exists x, n. split; auto.
    destruct (parent n); [destruct (prev n); destruct Hc|].
    destruct (prev n); [destruct Hc|].
    destruct (walk_b next (S (length (nodes a))) a (Some x)) as [l|]; [|destruct Hc].
    destruct Hc as [<-|[]]. auto.
  - intros (x & n & H & P & V & W). exists (x, n). split; auto. rewrite P, V, W. now left.
Qed.

Lemma abs_tops_iff : forall a F, Repr a F -> forall c, In c (tops (abs a)) <-> In c (tops F).
Proof.
  intros a F R c. unfold abs. cbn [tops]. rewrite in_tops_of. split.
  - intros (x & n & H & P & V & W). destruct (live_slot_live _ _ _ H) as [L <-].
    destruct (root_head_chain a F x R L P V) as (c' & Hc' & Hh).
    destruct (top_chain_walk a F c' R Hc') as (x' & B & -> & _ & _ & _ & W').
    cbn in Hh. inversion Hh; subst x'. rewrite W in W'. inversion W'; subst. exact Hc'.
  - intros Hc. destruct (top_chain_walk a F c R Hc) as (x & B & -> & L & P & V & W).
    exists x, (nd a x). split; [|auto]. apply in_live_slots.
    destruct (live_stamp _ _ L) as [S G].
    split; [apply at_nd; now apply live_inr|]. auto.
Qed.

Theorem abs_feq : forall a F, Repr a F -> feq (abs a) F.
Proof. intros a F R. split; [apply (abs_kids_eq a F R) | apply (abs_tops_iff a F R)]. Qed.

(* the computed forest is the represented forest, as far as forest_eqb can tell *)
Lemma abs_forest : forall a F dom, Repr a F -> forest_eqb dom F (abs a) = true.
Proof. intros a F dom R. apply forest_eqb_feq, feq_sym, abs_feq. exact R. Qed.

Theorem abs_repr : forall a F dom, Repr a F ->
  (forall p, In p dom -> same_list (kidsf (abs a) p) (kidsf F p) = true) /\
  chains_sub (tops (abs a)) (tops F) = true /\ chains_sub (tops F) (tops (abs a)) = true.
Proof.
  intros a F dom R. pose proof (forest_eqb_feq dom _ _ (abs_feq a F R)) as H.
  unfold forest_eqb in H. rewrite !andb_true_iff, forallb_forall in H. tauto.
Qed.

Corollary abs_forest_eqb : forall a F G dom, Repr a F ->
  (forall p, kidsf F p = kidsf G p) -> (forall c, In c (tops F) <-> In c (tops G)) ->
  forest_eqb dom G (abs a) = true.
Proof.
  intros a F G dom R HK HT. apply abs_forest. apply (Repr_ext a F G); [split; assumption | exact R].
Qed.

(* so every theorem about a represented forest can be read with F := abs a *)
Lemma repr_abs : forall a F, Repr a F -> Repr a (abs a).
Proof. intros a F R. apply (Repr_ext a F); [apply feq_sym, abs_feq|]; exact R. Qed.

Lemma slot_removed_b_spec : forall a x, slot_removed_b a x = true <-> slot_removed a x.
Proof.
  intros a x. unfold slot_removed_b, node_of, slot_removed, node_at. split.
  - destruct (nth_error (nodes a) (idx x)) as [n|]; [|discriminate].
    intros H. apply Z.ltb_lt in H. eauto.
  - intros (n & -> & H). now apply Z.ltb_lt.
Qed.

Lemma anc_list_live : forall a F x, Repr a F -> live a x ->
  exists l, anc_list a x = Some l /\ is_path a parent x l /\ (forall y, In y l <-> ancF F x y).
Proof.
  intros a F x R L. destruct (member_depth a F R x L) as [d Hd].
  destruct (anc_path a F R x d Hd) as (l & P & N & A & LV).
  exists l. split; [|auto]. unfold anc_list. apply is_path_walk; auto.
  pose proof (live_list_bound a l N LV). lia.
Qed.

(* the parent walk from x is x followed by the ancestors of its parent; a removed node has no parent *)
Lemma anc_list_usable : forall a F x, Repr a F -> usable a x ->
  exists l, anc_list a x = Some (x :: l) /\
            (forall y, In y l <-> exists p, In x (kidsf F p) /\ ancF F p y).
Proof.
  intros a F x R [L|SR].
  - destruct (anc_list_live a F x R L) as (l & E & P & _).
    apply is_path_inv in P. destruct P as (r & -> & _ & P). exists r. split; [exact E|].
    destruct r as [|z r'].
    + intros y. split; [intros []|]. intros (p & Hp & _).
      rewrite (kid_parent a F R p x Hp) in P. discriminate.
    + destruct P as [Pz P]. pose proof (parent_kid a F R x z L Pz) as Hx.
      destruct (anc_list_live a F z R (owner_live a F R z x Hx)) as (l' & _ & P' & A').
      rewrite (is_path_fun _ _ _ _ _ P P'). intros y. rewrite A'. split.
      * intros H. eauto.
      * intros (p & Hp & Ha). now rewrite (kid_unique a F R z p x Hx Hp).
  - exists []. split.
    + unfold anc_list. apply is_path_walk; [|cbn; lia].
      apply is_path_one; [now apply slot_removed_inr | apply (dead_links a F R x Fparent SR)].
    + intros y. split; [intros []|]. intros (p & Hp & _).
      eapply live_not_removed; [eapply kid_live; eauto | exact SR].
Qed.

Lemma would_cycle_b_spec : forall a F k x c, Repr a F -> usable a x ->
  (would_cycle_b a k x c = true <-> would_cycle F k x c).
Proof.
  intros a F k x c R U. unfold would_cycle_b.
  destruct (anc_list_usable a F x R U) as (l & -> & A).
  destruct k; cbn [would_cycle tl]; rewrite nid_in_In.
  1,2: cbn [In]; rewrite ancF_inv, A; tauto.
  1,2: apply A.
Qed.

Theorem impossible_b_spec : forall a F k x c, Repr a F -> usable a x ->
  (impossible_b a k x c = true <-> impossible a F k x c).
Proof.
  intros a F k x c R Ux. unfold impossible_b, impossible.
  rewrite !orb_true_iff, !slot_removed_b_spec, nid_eqb_eq, (would_cycle_b_spec a F k x c R Ux). tauto.
Qed.

Lemma nodeerror_eqb_refl : forall e, nodeerror_eqb e e = true.
Proof. intros []; reflexivity. Qed.

Theorem reason_applies_b_spec : forall a F k x c e, Repr a F -> usable a x ->
  reason_applies a F k x c e -> reason_applies_b a k x c e = true.
Proof.
  intros a F k x c e R Ux H. unfold reason_applies_b.
  rewrite !orb_true_iff, !andb_true_iff, orb_true_iff, !slot_removed_b_spec, nid_eqb_eq,
    (would_cycle_b_spec a F k x c R Ux).
  destruct H as [[-> ->]|[[-> H]|[-> H]]]; auto using nodeerror_eqb_refl.
Qed.

Lemma ondata_eqb_refl : forall d, ondata_eqb d d = true.
Proof. intros [v|[i|]]; cbn [ondata_eqb]; auto using N.eqb_refl, Nat.eqb_refl. Qed.

Lemma node_eqb_refl : forall n, node_eqb n n = true.
Proof. intros n. unfold node_eqb. now rewrite !onid_eqb_refl, Z.eqb_refl, ondata_eqb_refl. Qed.

Lemma nodes_eqb_refl : forall l, nodes_eqb l l = true.
Proof. induction l as [|n l IH]; cbn [nodes_eqb]; auto. now rewrite node_eqb_refl. Qed.

Lemma onat_eqb_refl : forall o, onat_eqb o o = true.
Proof. intros [i|]; cbn [onat_eqb]; auto using Nat.eqb_refl. Qed.

Lemma arena_eqb_refl : forall a, arena_eqb a a = true.
Proof. intros a. unfold arena_eqb. now rewrite nodes_eqb_refl, !onat_eqb_refl. Qed.

Lemma failed_check_unchanged : forall a F, Repr a F -> both_views_agree a = true /\ arena_eqb a a = true.
Proof. intros a F R. split; [eapply repr_both_views; eauto | apply arena_eqb_refl]. Qed.

Lemma shape_same_b_true : forall a a', same_shape a a' -> shape_same_b a a' = true.
Proof.
  intros a a' (LEN & _ & _ & H). unfold shape_same_b. rewrite LEN, Nat.eqb_refl. cbn [andb].
  apply (forallb_combine_nth (fun n m => Z.eqb (stamp n) (stamp m) && ondata_eqb (data n) (data m))).
  intros i n n' H1 H2. destruct (H i n H1) as (m & Hm & S & D).
  rewrite H2 in Hm. inversion Hm; subst m. now rewrite S, D, Z.eqb_refl, ondata_eqb_refl.
Qed.

Lemma others_same_b_true : forall except a a',
  (forall y n, live a y -> node_at a y n -> ~ In (idx y) except -> node_at a' y n) ->
  others_same_b except a a' = true.
Proof.
  intros except a a' H. unfold others_same_b. apply forallb_forall. intros [y n] Hy.
  destruct (existsb (Nat.eqb (idx y)) except) eqn:E; cbn [orb]; auto.
  apply in_live_slots in Hy. destruct Hy as (Hn & S & G).
  assert (NI : ~ In (idx y) except).
  { intros HI. rewrite (proj2 (existsb_exists _ _)) in E; [discriminate|].
    exists (idx y). split; [exact HI | apply Nat.eqb_refl]. }
  assert (L : live a y) by (exists n; auto).
  pose proof (H y n L Hn NI) as H'. unfold node_at in H'. unfold node_of. rewrite H'.
  apply node_eqb_refl.
Qed.

Lemma reusable_exists_b_spec : forall a, reusable_exists_b a = true <-> exists i, reusable_slot a i.
Proof.
  intros a. unfold reusable_exists_b, reusable_slot. rewrite existsb_exists. split.
  - intros (n & Hn & E). apply In_nth_error in Hn. destruct Hn as [i Hi]. exists i, n. split; auto.
    apply andb_true_iff in E. destruct E as [E1 E2]. apply Z.ltb_lt in E1, E2. lia.
  - intros (i & n & Hi & E). exists n. split; [eapply nth_error_In; eauto|].
    apply andb_true_iff. split; apply Z.ltb_lt; lia.
Qed.

(* a live node that the step does not remove stays live and keeps its payload (C06, C08) *)
Lemma survivors : forall w o D y m, WF w -> valid_op (ar w) o -> o <> OClear ->
  match o with OWrite z _ => z <> y | _ => True end ->
  removed (fst (step false w o)) = removed w ++ D -> In (y, m) (live_slots (ar w)) -> ~ In y D ->
  live (ar (fst (step false w o))) y /\
  exists m', node_of (ar (fst (step false w o))) y = Some m' /\ ondata_eqb (data m) (data m') = true.
Proof.
  intros w o D y m H V NC NW ER Hy NI. apply in_live_slots in Hy. destruct Hy as (Hm & S & G).
  pose proof (Assembly.step_WF w o H V) as H'.
  assert (L : live (ar w) y) by (exists m; auto).
  assert (L' : live (ar (fst (step false w o))) y).
  { apply AllocProps.step_live; auto. rewrite ER. intros HI. apply in_app_or in HI.
    destruct HI as [HI|HI]; [|auto]. exact (AllocProofs.removed_not_live w y (proj2 H) HI L). }
  split; [exact L'|].
  pose proof (AllocProps.step_payload_stable w o y H V L L' NW) as P.
  destruct L' as (m' & Hm' & S' & _). exists m'. split; [exact Hm'|].
  destruct (AllocProps.live_payload w y m (proj2 H) Hm) as (v & -> & Pv); [lia|].
  destruct (AllocProps.live_payload _ y m' (proj2 H') Hm') as (v' & -> & Pv'); [lia|].
  rewrite Pv, Pv' in P. injection P as ->. apply ondata_eqb_refl.
Qed.

(* the count grows exactly when no reusable slot exists (clause 32) *)
Lemma reusable_exists_b_free : forall a FL, FreeOK a FL -> reusable_exists_b a = nonempty FL.
Proof.
  intros a FL (_ & _ & _ & HR). destruct FL as [|i FL']; cbn [nonempty].
  - destruct (reusable_exists_b a) eqn:E; auto.
    apply reusable_exists_b_spec in E. destruct E as [i Hi]. apply HR in Hi. destruct Hi.
  - apply reusable_exists_b_spec. exists i. apply HR. now left.
Qed.

(* what new_node does, in the form the checks need *)
Lemma new_node_facts : forall w v, AllocOK w ->
  exists a' x, new_node false v (ar w) = (a', Ok x) /\
    live a' x /\ node_at a' x (fresh_node (gen x) (Data v)) /\
    (forall j, j <> idx x -> nth_error (nodes a') j = nth_error (nodes (ar w)) j) /\
    (forall y, live (ar w) y -> idx y <> idx x) /\
    length (nodes a') = if reusable_exists_b (ar w) then length (nodes (ar w)) else S (length (nodes (ar w))).
Proof.
  intros w v OK. destruct (al_free _ OK) as (FL & FO).
  destruct (AllocProofs.new_node_spec w v FL OK FO) as (a' & x & E & _ & LX & HX & HO & HFL & _).
  exists a', x. rewrite (reusable_exists_b_free _ _ FO).
  repeat (split; [assumption|]). split; [exact (fun y => AllocProofs.new_node_slot w v a' x y OK E)|].
  destruct FL as [|i FL']; destruct HFL as (_ & _ & LEN & _); exact LEN.
Qed.

(* [check_step] mentions the new arena a dozen times: in each case it is unfolded only after the
   step has been run, so that what is rewritten stays small. *)
Theorem check_step_silent : forall w o, WF w -> valid_op (ar w) o ->
  check_step (ar w) o (snd (step false w o)) (ar (fst (step false w o))) = [].
Proof.
  intros w o H V. pose proof H as [[F R] OK]. apply repr_abs in R.
  pose proof (Assembly.step_outcome w o _ R OK V) as SO.
  destruct (failed_check_unchanged _ _ R) as [BV AE].
  destruct o as [v|p v|k chk x c|x|x|x|x v| |n];
    cbn [valid_op] in V; cbv beta iota zeta in SO.
  - destruct (new_node_facts w v OK) as (a' & x & E & LX & HX & HO & Hnl & LEN).
    revert SO. cbn [step]. rewrite E. cbn [fst snd ar]. intros (x0 & Ex & R2 & _).
    inversion Ex; subst x0. unfold check_step. cbv zeta.
    rewrite (repr_both_views _ _ R2), (abs_forest _ _ _ R2).
    rewrite (not_live_b _ x (fun L => Hnl x L eq_refl)), (live_b_true _ _ LX).
    rewrite (others_same_b_true [] (ar w) a').
    2:{ intros y n Ly Hn _. unfold node_at in *. rewrite HO; auto. }
    unfold node_at in HX. unfold node_of. rewrite HX, node_eqb_refl, LEN, Nat.eqb_refl. reflexivity.
  - destruct V as [L|SR].
    + destruct (Assembly.append_full w _ p v R OK L)
        as (a1 & a' & x & E1 & E & R1 & R' & _ & S' & Lp1 & Lx1 & NE & _).
      destruct (new_node_facts w v OK) as (a1' & x' & E1' & _ & HX & HO & Hnl & LEN).
      rewrite E1 in E1'. inversion E1'; subst a1' x'.
      destruct (Assembly.append_exec _ a1 _ p v x R R1 (fun Lx => Hnl x Lx eq_refl) L Lp1 E1) as [EA _].
      rewrite E in EA. inversion EA; subst a'. clear EA.
      assert (Ep : nd a1 p = nd (ar w) p).
      { apply nd_at. rewrite HO by (now apply Hnl). apply at_nd. now apply live_inr. }
      cbn [step]. rewrite E. cbn [fst snd ar]. unfold check_step. cbv zeta.
      destruct (slot_removed_b (ar w) p) eqn:NR.
      { apply slot_removed_b_spec in NR. destruct (live_not_removed _ _ L NR). }
      rewrite (repr_both_views _ _ R'), (abs_forest _ _ _ R').
      rewrite (not_live_b _ x (fun Lx => Hnl x Lx eq_refl)), (live_b_true _ x).
      2:{ apply (live_same_shape a1 _ x S'). exact Lx1. }
      rewrite (others_same_b_true _ (ar w) (amap (iluF a1 x p) a1)).
      2:{ intros y n Ly Hn NI. rewrite node_of_nd in NI by (now apply live_inr).
          pose proof (Hnl y Ly) as Nx.
          unfold node_at in *. rewrite nth_amap, HO, Hn by exact Nx. cbn [option_map]. f_equal.
          unfold iluF. assert (Nj : Nat.eqb (idx y) (idx x) = false) by (now apply Nat.eqb_neq).
          apply ReprInsert.transplantF_other; auto.
          - cbn. now rewrite Nj.
          - cbn [oat]. apply Nat.eqb_neq. intros E'. apply NI. left. now symmetry.
          - rewrite Ep. destruct (last (nd (ar w) p)) as [l|]; cbn [oat]; auto.
            apply Nat.eqb_neq. intros E'. apply NI. right. left. now symmetry. }
      rewrite length_amap, LEN, Nat.eqb_refl. reflexivity.
    + destruct SO as [S1 _]. destruct (S1 SR) as [-> ->]. unfold check_step. cbv zeta.
      rewrite BV, AE, (proj2 (slot_removed_b_spec _ _) SR). reflexivity.
  - destruct V as [Ux Uc]. pose proof (impossible_b_spec _ _ k x c R Ux) as IS.
    unfold check_step. cbv zeta. destruct (impossible_b (ar w) k x c).
    + assert (I : impossible (ar w) (abs (ar w)) k x c) by (now apply IS).
      destruct chk; cbv beta iota zeta in SO; destruct SO as [S1 _].
      * destruct (S1 I) as (e & -> & RA & ->).
        rewrite BV, AE, (reason_applies_b_spec _ _ _ _ _ _ R Ux RA). reflexivity.
      * destruct (S1 I) as [-> ->]. rewrite BV, AE. reflexivity.
    + assert (NI : ~ impossible (ar w) (abs (ar w)) k x c) by (intros I; apply IS in I; discriminate).
      destruct chk; cbv beta iota zeta in SO; destruct SO as [_ S2]; destruct (S2 NI) as (-> & R2 & SS).
      * rewrite (repr_both_views _ _ R2), (abs_forest _ _ _ R2), (shape_same_b_true _ _ SS). reflexivity.
      * rewrite (repr_both_views _ _ R2), (abs_forest _ _ _ R2), (shape_same_b_true _ _ (proj1 SS)). reflexivity.
  - destruct SO as (-> & R2 & SS). unfold check_step. cbv zeta.
    rewrite (repr_both_views _ _ R2), (abs_forest _ _ _ R2), (shape_same_b_true _ _ SS). reflexivity.
  - pose proof (fun y m => survivors w (ORemove x) [x] y m H V ltac:(discriminate) Logic.I) as SV.
    destruct (Assembly.remove_run w _ x R OK V) as (_ & a' & v & _ & _ & _ & _ & _ & _ & Erem & _).
    destruct (AllocProofs.remove_alloc w x a' _ OK V Erem) as (_ & _ & SR & _).
    revert SO SV. cbn [step]. rewrite Erem. cbn [fst snd ar removed olist]. intros (_ & R2 & _) SV.
    unfold check_step. cbv zeta. repeat (apply app_nil_iff; split); apply ite_nil.
    + exact (repr_both_views _ _ R2).
    + exact (abs_forest _ _ _ R2).
    + now apply slot_removed_b_spec.
    + apply forallb_forall. intros [y m] Hy. cbn [fst]. destruct (nid_eqb y x) eqn:E; [reflexivity|].
      apply nid_eqb_false in E. apply live_b_true. apply (SV y m eq_refl Hy). intros [->|[]]. now apply E.
    + apply forallb_forall. intros [y m] Hy. destruct (nid_eqb y x) eqn:E; [reflexivity|].
      apply nid_eqb_false in E. destruct (SV y m eq_refl Hy) as [_ (m' & -> & E')]; [|exact E'].
      intros [->|[]]. now apply E.
  - destruct SO as (-> & R2 & ER). destruct (Assembly.step_WF w (ORemoveSubtree x) H V) as [_ OK'].
    pose proof (fun y m => survivors w (ORemoveSubtree x) _ y m H V ltac:(discriminate) Logic.I ER) as SV.
    unfold check_step. cbv zeta.
    set (D := preorderF (length (nodes (ar w))) (abs (ar w)) x) in *.
    set (a' := ar (fst (step false w (ORemoveSubtree x)))) in *.
    repeat (apply app_nil_iff; split); apply ite_nil.
    + exact (repr_both_views _ _ R2).
    + exact (abs_forest _ _ _ R2).
    + apply forallb_forall. intros [y m] Hy. cbn [fst]. destruct (nid_in y D) eqn:E.
      * apply nid_in_In in E. rewrite (not_live_b a' y); [reflexivity|].
        apply (AllocProofs.removed_not_live _ y OK'). rewrite ER. apply in_or_app. now right.
      * apply Basics.nid_in_false in E. rewrite (live_b_true a' y); [reflexivity|]. now apply (SV y m Hy).
    + apply forallb_forall. intros [y m] Hy. destruct (nid_in y D) eqn:E; [reflexivity|].
      apply Basics.nid_in_false in E. destruct (SV y m Hy E) as [_ (m' & -> & E')]. exact E'.
  - destruct (al_free _ OK) as (FL & FO).
    destruct (AllocProofs.write_payload_spec w x v FL OK FO V) as (a' & old & n & E & _ & _ & HX & HO & _).
    revert SO. cbn [step]. rewrite E. cbn [fst snd ar]. intros (_ & R2). unfold check_step. cbv zeta.
    rewrite (repr_both_views _ _ R2), (abs_forest _ _ _ R2).
    rewrite (others_same_b_true [idx x] (ar w) a').
    2:{ intros y m Ly Hm NI. unfold node_at in *. rewrite HO; auto. intros E'. apply NI. now left. }
    unfold node_at in HX. unfold node_of. rewrite HX. cbn [set_data data ondata_eqb].
    rewrite N.eqb_refl. reflexivity.
  - reflexivity.
  - destruct SO as [-> ->]. unfold check_step. cbv zeta. rewrite BV, AE. reflexivity.
Qed.

Print Assumptions abs_repr.
Print Assumptions abs_kids_eq.
Print Assumptions abs_forest_eqb.
Print Assumptions impossible_b_spec.
Print Assumptions reason_applies_b_spec.
Print Assumptions check_step_silent.
