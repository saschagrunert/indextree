(* AllocProps.v — identity, generations, slot reuse and payload accounting (C06, C07, C08) as
   consequences of the global invariant [WF], first at a state, then along histories.
   Release semantics (dbg = false). *)
From IT Require Import Props.
From IT.proofs Require Import ReprBase AllocProofs.
From IT.proofs Require Assembly.
Require Import Lia Permutation.
Open Scope Z_scope.
Open Scope mon_scope.

Lemma WF_alloc : forall w, WF w -> AllocOK w.
Proof. intros w H. apply H. Qed.

(* C06 *)

Theorem wf_issued_nodup : forall w, WF w -> NoDup (issued w).
Proof. intros w H. apply (al_nodup _ (WF_alloc _ H)). Qed.

Theorem wf_is_removed : forall w x, WF w -> In x (issued w) ->
  id_is_removed x (ar w) = Ok true /\ In x (removed w) \/
  id_is_removed x (ar w) = Ok false /\ ~ In x (removed w) /\ live (ar w) x.
Proof.
  intros w x H Hx. pose proof (WF_alloc _ H) as OK.
  pose proof (is_removed_correct w x OK Hx) as E.
  destruct (in_dec nid_eq_dec x (removed w)) as [Hr|Hr].
  - left. auto.
  - right. split; auto. split; auto.
    destruct (issued_live_or_removed w x OK Hx); tauto.
Qed.

(* a live id that the step does not record as removed stays live *)
Lemma step_live : forall w o x, WF w -> valid_op (ar w) o -> o <> OClear -> live (ar w) x ->
  ~ In x (removed (fst (step false w o))) -> live (ar (fst (step false w o))) x.
Proof.
  intros w o x H V NC L NR.
  destruct (wf_is_removed _ x (Assembly.step_WF w o H V)) as [(_ & Hr)|(_ & _ & L')]; [|contradiction|exact L'].
  apply (issued_monotone w o NC), (live_issued w x (WF_alloc _ H) L).
Qed.

Theorem wf_stamps_in_range : forall w i n, WF w -> nth_error (nodes (ar w)) i = Some n ->
  i16_min <= stamp n <= i16_max.
Proof. intros w i n H. apply (al_range _ (WF_alloc _ H)). Qed.

(* C07 *)

Lemma FreeOK_hd : forall a FL, FreeOK a FL -> ffree a = hd_error FL.
Proof.
  intros a FL (Hseg & _). destruct FL as [|i r]; cbn in *; auto. apply Hseg.
Qed.

Theorem wf_free_list : forall w, WF w ->
  NoDup (free_list (ar w)) /\ (forall i, In i (free_list (ar w)) <-> reusable_slot (ar w) i) /\
  ffree (ar w) = hd_error (free_list (ar w)).
Proof.
  intros w H. destruct (al_free _ (WF_alloc _ H)) as (FL & FO).
  rewrite (free_list_correct _ _ FO).
  split; [apply FO|]. split; [apply FO|]. now apply FreeOK_hd.
Qed.

Theorem wf_new_node : forall w v, WF w ->
  exists a' x, new_node false v (ar w) = (a', Ok x) /\ ~ In x (issued w) /\ ~ live (ar w) x /\ live a' x /\
    node_at a' x (fresh_node (gen x) (Data v)) /\
    (forall j, j <> idx x -> nth_error (nodes a') j = nth_error (nodes (ar w)) j) /\
    match free_list (ar w) with
    | i :: rest => idx x = i /\ length (nodes a') = length (nodes (ar w)) /\ free_list a' = rest
    | [] => idx x = length (nodes (ar w)) /\ length (nodes a') = S (length (nodes (ar w))) /\ free_list a' = []
    end.
Proof.
  intros w v H. pose proof (WF_alloc _ H) as OK. destruct (al_free _ OK) as (FL & FO).
  destruct (new_node_spec w v FL OK FO) as (a' & x & Hrun & NI & LV & X & O & C & _).
  exists a', x. rewrite (free_list_correct _ _ FO).
  split; auto. split; auto.
  assert (NL : ~ live (ar w) x) by (intros L; now apply (new_node_slot w v a' x x OK Hrun L)).
  split; auto. split; auto. split; auto. split; auto.
  destruct FL as [|i FL']; destruct C as (Ei & _ & L & FO');
    (split; [exact Ei|]; split; [exact L|]; now apply free_list_correct).
Qed.

Theorem wf_free_node : forall w x, WF w -> live (ar w) x ->
  exists a' v, free_node false x (ar w) = (a', Ok (Some v)) /\ payload_of_id (ar w) x = Some v /\
    free_list a' = free_list (ar w) ++ (if gen x <? i16_max then [idx x] else []).
Proof.
  intros w x H LV. pose proof (WF_alloc _ H) as OK. destruct (al_free _ OK) as (FL & FO).
  destruct (free_node_spec w x FL OK FO LV) as (a' & v & Hrun & (n & Hn & Hd) & _ & _ & _ & _ & _ & FO' & _).
  exists a', v. split; auto. split.
  - unfold payload_of_id. unfold node_at in Hn. now rewrite Hn, Hd.
  - rewrite (free_list_correct _ _ FO). now apply free_list_correct.
Qed.

Lemma run_cons : forall o r w, run false (o :: r) w = run false r (fst (step false w o)).
Proof. reflexivity. Qed.

Lemma run_app : forall ops1 ops2 w, run false (ops1 ++ ops2) w = run false ops2 (run false ops1 w).
Proof. intros. unfold run. apply fold_left_app. Qed.

Lemma valid_hist_app : forall ops1 ops2 w, valid_hist false w (ops1 ++ ops2) ->
  valid_hist false w ops1 /\ valid_hist false (run false ops1 w) ops2.
Proof.
  induction ops1 as [|o r IH]; intros ops2 w V.
  - split; [exact I|exact V].
  - destruct V as (V1 & V2). rewrite run_cons. destruct (IH _ _ V2) as (A & B).
    split; [split; assumption|assumption].
Qed.

(* C06 along histories *)

Theorem hist_issued_nodup : forall ops, valid_hist false init ops -> NoDup (issued (run false ops init)).
Proof. intros ops V. apply wf_issued_nodup. now apply Assembly.reachable_WF. Qed.

Theorem hist_is_removed_exact : forall ops x, valid_hist false init ops ->
  let w := run false ops init in In x (issued w) ->
  (id_is_removed x (ar w) = Ok true <-> In x (removed w)) /\ (id_is_removed x (ar w) = Ok false <-> ~ In x (removed w)).
Proof.
  intros ops x V w Hx.
  pose proof (Assembly.reachable_WF ops V) as H.
  destruct (wf_is_removed w x H Hx) as [(E & Hr)|(E & Hr & _)]; rewrite E;
    (split; split; intros G; auto; try discriminate; try contradiction).
Qed.

Lemma removed_forever_gen : forall ops w x, ~ In OClear ops -> In x (removed w) ->
  In x (removed (run false ops w)).
Proof.
  induction ops as [|o r IH]; intros w x NC Hx; [exact Hx|].
  rewrite run_cons. apply IH.
  - intros G. apply NC. now right.
  - apply removed_monotone; auto. intros ->. apply NC. now left.
Qed.

Theorem hist_removed_forever : forall ops1 ops2 x, valid_hist false init (ops1 ++ ops2) ->
  ~ In OClear ops2 -> In x (removed (run false ops1 init)) ->
  In x (removed (run false (ops1 ++ ops2) init)) /\ In x (issued (run false (ops1 ++ ops2) init)).
Proof.
  intros ops1 ops2 x V NC Hx.
  pose proof (Assembly.reachable_WF _ V) as H.
  assert (Hr : In x (removed (run false (ops1 ++ ops2) init))).
  { rewrite run_app. now apply removed_forever_gen. }
  split; auto. apply (al_removed _ (WF_alloc _ H)) in Hr. apply Hr.
Qed.

(* C08: payload frames of the primitive operations *)

Lemma payload_node : forall a x n, node_at a x n ->
  payload_of_id a x = match data n with Data v => Some v | NextFree _ => None end.
Proof. unfold node_at, payload_of_id. intros a x n ->. reflexivity. Qed.

Lemma live_payload : forall w x n, AllocOK w -> node_at (ar w) x n -> 0 <= stamp n ->
  exists v, data n = Data v /\ payload_of_id (ar w) x = Some v.
Proof.
  intros w x n OK Hn G. destruct (proj1 (al_data _ OK _ _ Hn) G) as (v & Dv).
  exists v. split; [exact Dv|]. now rewrite (payload_node _ _ _ Hn), Dv.
Qed.

Lemma payload_slot_eq : forall a a' x, nth_error (nodes a') (idx x) = nth_error (nodes a) (idx x) ->
  payload_of_id a' x = payload_of_id a x.
Proof. unfold payload_of_id. intros a a' x ->. reflexivity. Qed.

Lemma payload_data_eq : forall a a' x n n', nth_error (nodes a) (idx x) = Some n ->
  nth_error (nodes a') (idx x) = Some n' -> data n' = data n -> payload_of_id a' x = payload_of_id a x.
Proof. unfold payload_of_id. intros a a' x n n' -> -> ->. reflexivity. Qed.

Lemma payload_same_shape : forall a a' x, same_shape a a' -> payload_of_id a' x = payload_of_id a x.
Proof.
  intros a a' x SS. unfold payload_of_id.
  destruct (nth_error (nodes a) (idx x)) as [n|] eqn:E.
  - destruct SS as (_ & _ & _ & K). destruct (K _ _ E) as (n' & -> & _ & ->). reflexivity.
  - destruct (nth_error (nodes a') (idx x)) as [n'|] eqn:E'; auto.
    destruct (same_shape_inv _ _ _ _ SS E') as (n & Hn & _). congruence.
Qed.

Lemma payload_new_node : forall w v a' r x, AllocOK w -> new_node false v (ar w) = (a', r) ->
  live (ar w) x -> payload_of_id a' x = payload_of_id (ar w) x.
Proof.
  intros w v a' r x OK Hrun Lx. destruct (al_free _ OK) as (FL & FO).
  destruct (new_node_spec w v FL OK FO) as (a2 & y & Hrun2 & _ & _ & _ & O & _).
  rewrite Hrun in Hrun2. injection Hrun2 as <- ->.
  apply payload_slot_eq, O. now apply (new_node_slot w v a' y x OK Hrun).
Qed.

(* the nodes of D are freed; every other slot keeps its stamp and, while it is live, its data *)
Lemma payload_freed : forall a a' D x, (forall y, In y D -> live a y /\ slot_removed a' y) ->
  (forall j n, ~ In j (map idx D) -> nth_error (nodes a) j = Some n ->
     exists n', nth_error (nodes a') j = Some n' /\ stamp n' = stamp n /\ (0 <= stamp n -> data n' = data n)) ->
  live a x -> live a' x -> payload_of_id a' x = payload_of_id a x.
Proof.
  intros a a' D x HD K Lx Lx'.
  assert (NI : ~ In (idx x) (map idx D)).
  { intros Hin. apply in_map_iff in Hin. destruct Hin as (y & Ey & Hy). destruct (HD y Hy) as (Ly & SR).
    assert (x = y) as -> by (now apply (live_inj a)). now apply (live_not_removed _ _ Lx'). }
  destruct Lx as (n & Hn & Es & G). unfold node_at in Hn.
  destruct (K _ _ NI Hn) as (n' & Hn' & _ & Ed).
  eapply payload_data_eq; eauto. apply Ed. lia.
Qed.

Lemma payload_write : forall w y v a' r x, AllocOK w -> live (ar w) y ->
  write_payload y v (ar w) = (a', r) -> live (ar w) x -> y <> x ->
  payload_of_id a' x = payload_of_id (ar w) x.
Proof.
  intros w y v a' r x OK Ly Hrun Lx NE. destruct (al_free _ OK) as (FL & FO).
  destruct (write_payload_spec w y v FL OK FO Ly) as (a2 & old & n & Hrun2 & _ & _ & _ & O & _).
  rewrite Hrun in Hrun2. injection Hrun2 as <- _.
  apply payload_slot_eq, O. intros E. apply NE. symmetry. now apply (live_inj (ar w)).
Qed.

Lemma step_ar : forall w o, ar (fst (step false w o)) =
  match o with
  | ONew v => fst (new_node false v (ar w))
  | OAppendValue p v => fst (append_value false p v (ar w))
  | OInsert k true a b => fst (checked_insert false k a b (ar w))
  | OInsert k false a b => fst (unchecked_insert false k a b (ar w))
  | ODetach x => fst (detach false x (ar w))
  | ORemove x => fst (remove false x (ar w))
  | ORemoveSubtree x => fst (remove_subtree false x (ar w))
  | OWrite x v => fst (write_payload x v (ar w))
  | OClear => empty_arena
  | OReserve _ => ar w
  end.
Proof.
  intros w o. destruct o as [v|p v|k [|] a b|y|y|y|y v| |k]; cbn [step]; try reflexivity.
  all: match goal with |- context [match ?m with _ => _ end] => destruct m as [a' [r|c|]] end; try reflexivity.
  all: destruct r; reflexivity.
Qed.

(* C08: a live node keeps its payload unless it is itself written or removed *)

Theorem step_payload_stable : forall w o x, WF w -> valid_op (ar w) o -> live (ar w) x ->
  live (ar (fst (step false w o))) x ->
  (match o with OWrite y _ => y <> x | _ => True end) ->
  payload_of_id (ar (fst (step false w o))) x = payload_of_id (ar w) x.
Proof.
  intros w o x [[F R] OK] V Lx Lx' Hy.
  destruct (relinks o) eqn:Ro.
  { destruct (step_same_shape w o Ro) as (a' & SS & ->). now apply payload_same_shape. }
  rewrite step_ar in *.
  destruct o as [v|p v|k chk a b|y|y|y|y v| |k]; try discriminate Ro; cbn [valid_op] in V; cbn beta iota in Hy.
  - destruct (new_node false v (ar w)) as [a' r] eqn:E. cbn [fst] in *.
    eapply payload_new_node; eauto.
  - destruct (append_value false p v (ar w)) as [a' r] eqn:E. cbn [fst] in *.
    destruct (append_value_arena w p v a' r OK E) as [(-> & _)|(a1 & z & E1 & SS & _)]; [reflexivity|].
    rewrite (payload_same_shape a1 a' x SS). eapply payload_new_node; eauto.
  - destruct (Assembly.remove_run w F y R OK V) as (a1 & a' & v & FL1 & SS & OK1 & FO1 & L1 & Hfree & Hrem & _).
    destruct (free_node_spec _ y FL1 OK1 FO1 L1) as (a2 & v2 & E2 & _ & _ & SR & _ & _ & P & _).
    sn. rewrite Hfree in E2. injection E2 as <- _. rewrite Hrem in *. cbn [fst] in *.
    rewrite <- (payload_same_shape (ar w) a1 x SS).
    apply (payload_freed a1 a' [y] x); [intros z [<-|[]]; auto| |now apply (live_same_shape (ar w) a1 x SS)|exact Lx'].
    intros j n NI Hn. destruct (P j n Hn) as (n' & Hn' & _ & _ & _ & _ & _ & K).
    exists n'. split; [exact Hn'|]. apply K. intros E. apply NI. now left.
  - destruct (Assembly.remove_subtree_run w F y R OK V)
      as (a1 & a' & olds & FL1 & SS & OK1 & FO1 & ND & LD & Hfa & Hrs & _).
    set (D := preorderF _ F y) in *.
    destruct (free_all_spec D _ FL1 OK1 FO1 LD ND) as (a2 & olds2 & E2 & _ & _ & _ & SRs & K & _).
    sn. rewrite Hfa in E2. injection E2 as <- _. rewrite Hrs in *. cbn [fst] in *.
    rewrite <- (payload_same_shape (ar w) a1 x SS).
    apply (payload_freed a1 a' D x); [intros z Hz; split; [now apply LD|now apply SRs]| |now apply (live_same_shape (ar w) a1 x SS)|exact Lx'].
    intros j n NI Hn. destruct (K j n NI Hn) as (n' & Hn' & _ & Es & Ed). eauto.
  - destruct (write_payload y v (ar w)) as [a' r] eqn:E. cbn [fst] in *.
    apply (payload_write w y v a' r x OK V E Lx Hy).
  - destruct Lx' as (n & Hn & _). unfold node_at in Hn. cbn in Hn. destruct (idx x); discriminate.
Qed.

Theorem step_write : forall w x v, WF w -> live (ar w) x ->
  payload_of_id (ar (fst (step false w (OWrite x v)))) x = Some v.
Proof.
  intros w x v H L. pose proof (WF_alloc _ H) as OK. destruct (al_free _ OK) as (FL & FO).
  destruct (write_payload_spec w x v FL OK FO L) as (a' & old & n & Hrun & _ & _ & Hn' & _).
  rewrite step_ar, Hrun. cbn [fst]. rewrite (payload_node _ _ _ Hn'). reflexivity.
Qed.

(* C08: payload accounting *)

Definition intro1 (o : op) (out : outcome) : list N :=
  match o, out with
  | ONew v, OutId _ => [v]
  | OAppendValue _ v, OutId _ => [v]
  | OWrite _ v, OutUnit => [v]
  | _, _ => []
  end.

Lemma introduced_cons : forall o r w, introduced false (o :: r) w =
  intro1 o (snd (step false w o)) ++ introduced false r (fst (step false w o)).
Proof. reflexivity. Qed.

Lemma step_accounting : forall w o ever, WF w -> valid_op (ar w) o -> PayOK w ever ->
  PayOK (fst (step false w o)) (intro1 o (snd (step false w o)) ++ ever).
Proof.
  intros w o ever H V P. pose proof (WF_alloc _ H) as OK. pose proof H as ((F & R) & _).
  destruct (al_free _ OK) as (FL & FO).
  destruct (relinks o) eqn:Ro.
  { destruct (step_same_shape w o Ro) as (a' & SS & ->).
    replace (intro1 o _) with (@nil N) by (now destruct o). apply (PayOK_same_shape w ever a' P SS). }
  destruct o as [v|p v|k chk a b|y|y|y|y v| |k]; try discriminate Ro.
  - cbn [step]. destruct (new_node_spec w v FL OK FO) as (a' & x & Hrun & _). rewrite Hrun.
    cbn [fst snd intro1]. apply (PayOK_step w ever a' _ _ _ [v] [] P); [now rewrite app_nil_r|].
    apply (new_node_stored w v a' x OK Hrun).
  - cbn [step valid_op] in *. destruct V as [L|SR].
    + destruct (Assembly.append_full w F p v R OK L) as (a1 & a' & x & E1 & E & _ & _ & _ & SS & _).
      rewrite E. cbn [fst snd intro1]. apply (PayOK_step w ever a' _ _ _ [v] [] P); [now rewrite app_nil_r|].
      rewrite (stored_same_shape a1 a' SS). apply (new_node_stored w v a1 x OK E1).
    + rewrite (Assembly.append_value_removed false (ar w) p v SR). cbn [fst snd fail_out intro1 app].
      now rewrite world_eta.
  - cbn [step valid_op] in *.
    destruct (Assembly.remove_run w F y R OK V) as (a1 & a' & v & FL1 & SS & OK1 & FO1 & L1 & Hfree & Hrem & _).
    rewrite Hrem. cbn [fst snd intro1 olist].
    apply (PayOK_step w ever a' _ _ _ [] [v] P eq_refl). rewrite <- (stored_same_shape _ a1 SS).
    apply (free_node_stored _ y FL1 a' v OK1 FO1 L1 Hfree).
  - cbn [step valid_op] in *.
    destruct (Assembly.remove_subtree_run w F y R OK V)
      as (a1 & a' & olds & FL1 & SS & OK1 & FO1 & ND & LD & Hfa & Hrs & _).
    rewrite Hrs. cbn [fst snd intro1].
    destruct (free_all_spec _ _ FL1 OK1 FO1 LD ND) as (a2 & olds2 & E2 & _ & _ & _ & _ & _ & _ & _ & Q).
    sn. rewrite Hfa in E2. injection E2 as <- <-.
    apply (PayOK_step w ever a' _ _ _ [] olds P eq_refl). rewrite <- (stored_same_shape _ a1 SS).
    symmetry. exact Q.
  - cbn [step valid_op] in *.
    destruct (write_payload_spec w y v FL OK FO V) as (a' & old & n & Hrun & _). rewrite Hrun.
    cbn [fst snd intro1]. apply (PayOK_step w ever a' _ _ _ [v] [old] P eq_refl).
    apply (write_payload_stored w y v a' old OK V Hrun).
  - cbn. apply (PayOK_step w ever empty_arena _ _ _ [] (stored (ar w)) P eq_refl).
    cbn. now rewrite app_nil_r.
Qed.

Lemma hist_accounting_ever : forall ops w ever, WF w -> valid_hist false w ops -> PayOK w ever ->
  PayOK (run false ops w) (introduced false ops w ++ ever).
Proof.
  induction ops as [|o r IH]; intros w ever H V P; [exact P|].
  destruct V as (V1 & V2). rewrite introduced_cons, run_cons.
  pose proof (IH _ _ (Assembly.step_WF w o H V1) V2 (step_accounting w o ever H V1 P)) as Q.
  unfold PayOK in *. eapply Permutation_trans; [|exact Q].
  rewrite <- app_assoc. rewrite !app_assoc. apply Permutation_app_tail. apply Permutation_app_comm.
Qed.

Theorem hist_payload_accounting_gen : forall ops w, WF w -> valid_hist false w ops ->
  Permutation (introduced false ops w ++ dropped w ++ stored (ar w))
              (dropped (run false ops w) ++ stored (ar (run false ops w))).
Proof.
  intros ops w H V. apply (hist_accounting_ever ops w (dropped w ++ stored (ar w)) H V).
  apply Permutation_refl.
Qed.

Theorem hist_payload_accounting : forall ops, valid_hist false init ops ->
  Permutation (introduced false ops init) (dropped (run false ops init) ++ stored (ar (run false ops init))).
Proof.
  intros ops V. pose proof (hist_payload_accounting_gen ops init Assembly.WF_init V) as Q.
  cbn [init dropped ar app] in Q. change (stored empty_arena) with (@nil N) in Q.
  now rewrite app_nil_r in Q.
Qed.

Corollary hist_drop_once : forall ops, valid_hist false init ops -> NoDup (introduced false ops init) ->
  NoDup (dropped (run false ops init)) /\
  (forall v, In v (dropped (run false ops init)) -> ~ In v (stored (ar (run false ops init)))).
Proof.
  intros ops V ND. pose proof (hist_payload_accounting ops V) as Q.
  pose proof (Permutation_NoDup Q ND) as ND'. split.
  - eapply NoDup_app_left; eauto.
  - intros v. exact (NoDup_app_disj _ _ ND' v).
Qed.

Print Assumptions wf_issued_nodup.
Print Assumptions wf_is_removed.
Print Assumptions wf_stamps_in_range.
Print Assumptions wf_free_list.
Print Assumptions wf_new_node.
Print Assumptions wf_free_node.
Print Assumptions hist_issued_nodup.
Print Assumptions hist_is_removed_exact.
Print Assumptions hist_removed_forever.
Print Assumptions step_payload_stable.
Print Assumptions step_write.
Print Assumptions hist_payload_accounting_gen.
Print Assumptions hist_payload_accounting.
Print Assumptions hist_drop_once.
