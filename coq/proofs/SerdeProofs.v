(* SerdeProofs.v — round trip of the token-level serde model: decode (encode a) = a
   for every arena whose stamps fit the Rust type i16. *)
From IT Require Import Serde.
From Coq Require Import Lia.  (* List, ZArith, ... come through Serde; re-importing List would shadow the field [last] *)
Open Scope Z_scope.

(* what the Rust types guarantee: every stamp, in a node or in an id, is an i16 *)
Definition oid_ok (o : option nid) : Prop := match o with Some x => in_i16 (gen x) = true | None => True end.
Definition node_types_ok (n : node) : Prop :=
  in_i16 (stamp n) = true /\ oid_ok (parent n) /\ oid_ok (prev n) /\ oid_ok (next n) /\ oid_ok (first n) /\ oid_ok (last n).
Definition types_ok (a : arena) : Prop := Forall node_types_ok (nodes a).

Lemma dbind_ok : forall {A B} {d : dec A} {k : A -> dec B} {ts x r},
  d ts = Some (x, r) -> dbind d k ts = k x r.
Proof. intros A B d k ts x r H. unfold dbind. rewrite H. reflexivity. Qed.

(* in continuation form, so that a decoder is run by applying one lemma per token or field *)
Lemma expect_then : forall {B} (p : tok -> bool) (k : unit -> dec B) t r R,
  p t = true -> k tt r = R -> dbind (expect_tok p) k (t :: r) = R.
Proof. intros B p k t r R H <-. unfold dbind, expect_tok. rewrite H. reflexivity. Qed.

Lemma fname_eqb_refl : forall f, fname_eqb f f = true.
Proof. destruct f; reflexivity. Qed.

Lemma sname_eqb_refl : forall n, sname_eqb n n = true.
Proof. destruct n; reflexivity. Qed.

Lemma is_field_refl : forall f, is_field f (TField f) = true.
Proof. exact fname_eqb_refl. Qed.

Lemma is_struct_refl : forall n k, is_struct n k (TStruct n k) = true.
Proof. intros n k. cbn [is_struct]. rewrite sname_eqb_refl, Nat.eqb_refl. reflexivity. Qed.

Lemma app_cons_assoc : forall {A} (x : A) l r, (x :: l) ++ r = x :: (l ++ r).
Proof. reflexivity. Qed.

(* d reads back what enc wrote, for the values in P, and leaves the rest of the input *)
Definition codec {A} (d : dec A) (enc : A -> list tok) (P : A -> Prop) : Prop :=
  forall v rest, P v -> d (enc v ++ rest) = Some (v, rest).

Lemma codec_stamp : codec dec_stamp enc_stamp (fun s => in_i16 s = true).
Proof.
  intros s rest H. unfold dec_stamp, enc_stamp. cbn [app].
  apply expect_then; [reflexivity|]. rewrite H. reflexivity.
Qed.

Lemma codec_id : codec dec_id enc_id (fun x => in_i16 (gen x) = true).
Proof.
  intros [i s] rest H. cbn [gen] in H. unfold dec_id, enc_id. cbn [idx gen app].
  apply expect_then; [reflexivity|]. apply expect_then; [reflexivity|].
  rewrite Nat2N.id. apply expect_then; [reflexivity|].
  rewrite <- app_assoc. rewrite (dbind_ok (codec_stamp s _ H)).
  apply expect_then; reflexivity.
Qed.

Lemma codec_usize : codec dec_usize (fun k => [TU (N.of_nat k)]) (fun _ => True).
Proof. intros k rest _. cbn [app dec_usize]. rewrite Nat2N.id. reflexivity. Qed.

Lemma codec_option : forall {A} {d : dec A} {enc P}, codec d enc P ->
  codec (dec_option d) (fun o => match o with None => [TNone] | Some x => TSome :: enc x end)
        (fun o => match o with Some x => P x | None => True end).
Proof. intros A d enc P H [x|] rest Hx; cbn [app dec_option]; [rewrite (H x rest Hx)|]; reflexivity. Qed.

Lemma codec_oid : codec (dec_option dec_id) enc_oid oid_ok.
Proof. exact (codec_option codec_id). Qed.

Lemma codec_ousize : codec (dec_option dec_usize) enc_ousize (fun _ => True).
Proof. intros o rest _. apply (codec_option codec_usize). now destruct o. Qed.

Lemma codec_data : codec dec_data enc_data (fun _ => True).
Proof.
  intros [v|o] rest _; cbn [enc_data app dec_data]; [reflexivity|].
  rewrite (codec_ousize o rest I). reflexivity.
Qed.

(* one named field; [more] is what the enclosing struct writes after it, [rest] what follows the struct *)
Lemma field_then : forall {A B f} {d : dec A} {enc P} {k : A -> dec B} {v more rest R}, codec d enc P -> P v ->
  k v (more ++ rest) = R ->
  dbind (dec_field f d) k (TField f :: (enc v ++ more) ++ rest) = R.
Proof.
  intros A B f d enc P k v more rest R H Hv <-. apply dbind_ok. unfold dec_field.
  apply expect_then; [apply is_field_refl|]. rewrite <- app_assoc. exact (H v _ Hv).
Qed.

Lemma codec_node : codec dec_node enc_node node_types_ok.
Proof.
  intros [p pv nx fc lc s d] rest (Hs & Hp & Hpv & Hnx & Hfc & Hlc).
  cbn [stamp parent prev next first last] in *.
  unfold dec_node, enc_node. cbn [stamp parent prev next first last data].
  apply expect_then; [reflexivity|].
  apply (field_then codec_oid Hp).
  apply (field_then codec_oid Hpv).
  apply (field_then codec_oid Hnx).
  apply (field_then codec_oid Hfc).
  apply (field_then codec_oid Hlc).
  apply (field_then codec_stamp Hs).
  apply (field_then codec_data I).
  apply expect_then; reflexivity.
Qed.

Lemma codec_seq : forall {A} {d : dec A} {enc P}, codec d enc P ->
  forall l rest, Forall P l -> dec_seq d (length l) (flat_map enc l ++ rest) = Some (l, rest).
Proof.
  intros A d enc P Hd l. induction l as [|v l IH]; intros rest HF.
  - reflexivity.
  - inversion HF as [|v' l' Hv Hl]; subst.
    cbn [length flat_map dec_seq]. rewrite <- app_assoc.
    rewrite (dbind_ok (Hd v _ Hv)).
    rewrite (dbind_ok (IH rest Hl)).
    reflexivity.
Qed.

Theorem decode_encode : forall (a : arena) (rest : list tok),
  types_ok a -> decode (encode a ++ rest) = Some (a, rest).
Proof.
  intros [ns ff lf] rest H. unfold types_ok in H. cbn [nodes] in H.
  unfold decode, encode. cbn [nodes ffree lfree app].
  apply expect_then; [reflexivity|]. apply expect_then; [reflexivity|].
  rewrite <- app_assoc. rewrite (dbind_ok (codec_seq codec_node ns _ H)).
  apply expect_then; [reflexivity|].
  apply (field_then codec_ousize I).
  apply (field_then codec_ousize I).
  apply expect_then; reflexivity.
Qed.

Corollary encode_injective : forall a b, types_ok a -> types_ok b -> encode a = encode b -> a = b.
Proof.
  intros a b Ha Hb E.
  pose proof (decode_encode a [] Ha) as Da.
  pose proof (decode_encode b [] Hb) as Db.
  rewrite E in Da. rewrite Da in Db. inversion Db. reflexivity.
Qed.

(* the hypothesis is not vacuous and is necessary: *)
Example types_ok_example : types_ok (mkArena [mkNode None None (Some (mkId 1 3)) None None 0 (Data 7%N);
                                               mkNode None (Some (mkId 0 0)) None None None (-4) (NextFree (Some 0%nat))]
                                              (Some 1%nat) (Some 1%nat)).
Proof.
  unfold types_ok. cbn [nodes].
  repeat constructor; vm_compute; reflexivity.
Qed.

Example out_of_range_stamp_rejected :
  decode (encode (mkArena [mkNode None None None None None 40000 (Data 1%N)] None None)) = None.
Proof. vm_compute. reflexivity. Qed.

Print Assumptions decode_encode.
Print Assumptions encode_injective.
