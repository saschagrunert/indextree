(* ValueProofs.v — C11 (lookup agreement on index/stamp logic) and C13 (clear means fresh,
   behaviour is a function of the arena alone, capacity guarantees). *)
From IT Require Import Value Forest.
Require Import Lia.

Lemma get_index_agree : forall a x n, get a x = Some n <-> nth_error (nodes a) (idx x) = Some n.
Proof. intros; unfold get; tauto. Qed.

Lemma get_none_out_of_range : forall a x, (length (nodes a) <= idx x)%nat -> get a x = None.
Proof. intros. unfold get. now apply nth_error_None. Qed.

Lemma get_node_id_of_live : forall a x, live a x -> get_node_id a (ref_of a x) = Some x.
Proof.
  intros a x (n & Hn & Hs & _). unfold node_at in Hn. unfold ref_of, get. rewrite Hn. cbn. rewrite Hn.
  destruct x as [i g]; cbn in *. now subst.
Qed.

Lemma get_node_id_at_of_live : forall a x, live a x -> get_node_id_at a (usize_of x) = Some x.
Proof.
  intros a x (n & Hn & Hs & Hg). unfold node_at in Hn. unfold usize_of, get_node_id_at. rewrite Hn.
  unfold node_is_removed, st_is_removed. destruct (Z.ltb_spec (stamp n) 0); [lia|].
  destruct x as [i g]; cbn in *. now subst.
Qed.

Lemma get_node_id_at_removed : forall a i n, nth_error (nodes a) i = Some n -> stamp n < 0 ->
  get_node_id_at a (S i) = None.
Proof.
  intros. cbn. rewrite H. unfold node_is_removed, st_is_removed. destruct (Z.ltb_spec (stamp n) 0); [reflexivity|lia].
Qed.

Lemma get_node_id_at_out_of_range : forall a k, (length (nodes a) < k)%nat -> get_node_id_at a k = None.
Proof.
  intros a [|k] H; cbn; auto. destruct (nth_error (nodes a) k) eqn:E; auto.
  assert (k < length (nodes a))%nat by (apply nth_error_Some; congruence). lia.
Qed.

Lemma get_node_id_elsewhere : forall a, get_node_id a Elsewhere = None.
Proof. reflexivity. Qed.

Lemma is_empty_count : forall a, is_empty a = true <-> count a = 0%nat.
Proof. intros. unfold is_empty. apply Nat.eqb_eq. Qed.

Lemma position_of_id : forall a x, live a x -> (1 <= usize_of x <= count a)%nat.
Proof.
  intros a x (n & Hn & _). unfold usize_of, count. unfold node_at in Hn.
  assert (idx x < length (nodes a))%nat by (apply nth_error_Some; congruence). lia.
Qed.

(* the ghost fields never influence what a call does *)
Lemma step_ar_only : forall dbg w1 w2 o, ar w1 = ar w2 ->
  ar (fst (step dbg w1 o)) = ar (fst (step dbg w2 o)) /\ snd (step dbg w1 o) = snd (step dbg w2 o).
Proof.
  intros dbg w1 w2 o E. destruct w1 as [a1 i1 r1 d1], w2 as [a2 i2 r2 d2]; cbn in E; subst a2.
  destruct o as [v|p v|k ch x c|x|x|x|x v| |k]; cbn [step ar].
  - destruct (new_node dbg v a1) as [a' [y|cd|]]; cbn; auto.
  - destruct (append_value dbg p v a1) as [a' [y|cd|]]; cbn; auto.
  - destruct ch.
    + destruct (checked_insert dbg k x c a1) as [a' [[|e]|cd|]]; cbn; auto.
    + destruct (unchecked_insert dbg k x c a1) as [a' [[]|cd|]]; cbn; auto.
  - destruct (detach dbg x a1) as [a' [[]|cd|]]; cbn; auto.
  - destruct (remove dbg x a1) as [a' [old|cd|]]; cbn; auto.
  - destruct (remove_subtree dbg x a1) as [a' [[ids olds]|cd|]]; cbn; auto.
  - destruct (write_payload x v a1) as [a' [old|cd|]]; cbn; auto.
  - destruct (clear a1) as [a' [olds|cd|]]; cbn; auto.
  - auto.
Qed.

Lemma run_ar_only : forall dbg ops w1 w2, ar w1 = ar w2 -> ar (run dbg ops w1) = ar (run dbg ops w2).
Proof.
  intros dbg ops. induction ops as [|o r IH]; intros w1 w2 E; cbn; auto.
  apply IH. apply (step_ar_only dbg w1 w2 o E).
Qed.

Fixpoint outcomes (dbg : bool) (ops : list op) (w : world) : list outcome :=
  match ops with [] => [] | o :: r => snd (step dbg w o) :: outcomes dbg r (fst (step dbg w o)) end.

Lemma outcomes_ar_only : forall dbg ops w1 w2, ar w1 = ar w2 -> outcomes dbg ops w1 = outcomes dbg ops w2.
Proof.
  intros dbg ops. induction ops as [|o r IH]; intros w1 w2 E; cbn; auto.
  destruct (step_ar_only dbg w1 w2 o E) as [Ea Eo]. rewrite Eo. f_equal. apply IH, Ea.
Qed.

Lemma clear_is_fresh_arena : forall dbg w, ar (fst (step dbg w OClear)) = ar init.
Proof. intros. reflexivity. Qed.

Lemma clear_is_fresh : forall dbg w ops,
  ar (run dbg ops (fst (step dbg w OClear))) = ar (run dbg ops init) /\
  outcomes dbg ops (fst (step dbg w OClear)) = outcomes dbg ops init.
Proof. intros. split; [apply run_ar_only | apply outcomes_ar_only]; reflexivity. Qed.

Lemma reserve_changes_nothing : forall dbg w k, fst (step dbg w (OReserve k)) = w /\ snd (step dbg w (OReserve k)) = OutUnit.
Proof. intros; split; reflexivity. Qed.

Section Cap.
  Variable grow : nat -> nat -> nat.
  Hypothesis grow_ge : forall c n, (n <= grow c n)%nat.

  Definition cap_ok (v : varena) : Prop := (length (nodes (va v)) <= cap v)%nat.

  (* the capacity after making room for n elements *)
  Lemma room_ok : forall n c, (n <= (if Nat.leb n c then c else grow c n) /\ c <= (if Nat.leb n c then c else grow c n))%nat.
  Proof. intros n c. destruct (Nat.leb_spec n c); [lia | pose proof (grow_ge c n); lia]. Qed.

  Lemma with_capacity_ok : forall n, (n <= cap (v_with_capacity grow n))%nat /\ va (v_with_capacity grow n) = empty_arena.
  Proof. intros. split; cbn; auto. Qed.

  Lemma reserve_ok : forall k v,
    (length (nodes (va v)) + k <= cap (v_reserve grow k v))%nat /\ va (v_reserve grow k v) = va v /\ (cap v <= cap (v_reserve grow k v))%nat.
  Proof. intros k v. destruct (room_ok (length (nodes (va v)) + k) (cap v)). repeat split; assumption. Qed.

  Lemma clear_keeps_capacity : forall v, cap (v_clear v) = cap v /\ va (v_clear v) = empty_arena.
  Proof. intros; split; reflexivity. Qed.

  Lemma step_cap_ok : forall dbg v w o, va v = ar w -> cap_ok v -> cap_ok (v_step grow dbg v w o) /\ (cap v <= cap (v_step grow dbg v w o))%nat.
  Proof.
    intros dbg v w o E H. unfold cap_ok, v_step. cbn [va cap]. destruct o; try apply room_ok.
    destruct (reserve_ok k v) as (A & _ & B). cbn [step fst]. rewrite <- E. lia.
  Qed.
End Cap.
