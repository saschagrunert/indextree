(* C01 — Links of live nodes always describe a well-formed ordered forest.
   For EVERY history of valid API calls from the empty arena (failing calls included), the arena
   satisfies LinksOK (theories/Props.v: the property text over the arena's own fields), and the
   executable monitor c01_check — the same statement in boolean form, which the correspondence check
   evaluates on every state OBSERVED ON THE IMPLEMENTATION — is silent on every model state. *)
From IT Require Import Props.
From IT.proofs Require Import Reach StateProps MonitorSound.

Theorem C01_links_wellformed : forall ops, valid_hist false init ops -> LinksOK (ar (reach ops)).
Proof. intros ops H. destruct (reach_repr ops H) as [F R]. exact (repr_links_ok _ F R). Qed.
Theorem C01_monitor_silent : forall ops, valid_hist false init ops -> c01_check (ar (reach ops)) = [].
Proof. intros ops H. destruct (reach_repr ops H) as [F R]. exact (repr_c01_silent _ F R). Qed.
(* the invariant behind it: every reachable arena represents an abstract ordered forest *)
Theorem C01_represents_forest : forall ops, valid_hist false init ops -> exists F, Repr (ar (reach ops)) F.
Proof. exact reach_repr. Qed.

(* soundness of the monitor, for ARBITRARY arenas (no invariant assumed): whenever c01_check is silent
   on a state — in particular a state observed on the implementation — LinksOK holds of that state *)
Theorem C01_monitor_sound : forall a, c01_check a = [] -> LinksOK a.
Proof. exact c01_check_sound. Qed.

Print Assumptions C01_links_wellformed.
Print Assumptions C01_monitor_sound.
Print Assumptions C01_monitor_silent.
Print Assumptions C01_represents_forest.
