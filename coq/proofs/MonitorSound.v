(* MonitorSound.v — the executable checkers of Monitor.v against the declarative properties of Props.v,
   on ARBITRARY arenas: no representation invariant is assumed.  First what the checkers are made of,
   read as propositions (the enumeration of slots, [live_b], paths along a link and the bounded walk
   [walk_b]); then each checker is silent exactly when its property holds.  StateProps.v shows that
   the properties hold of every arena that represents a forest. *)
From IT Require Import Props.
From IT.proofs Require Import ReprBase.
From Coq Require Import Lia.
Local Open Scope nat_scope.

Lemma nodup_b_NoDup : forall l, nodup_b l = true <-> NoDup l.
Proof.
  induction l as [|x l IH]; cbn [nodup_b].
  - split; [constructor | reflexivity].
  - rewrite andb_true_iff, negb_true_iff, nid_in_false, IH. split.
    + intros [H1 H2]. now constructor.
    + intros H. inversion H; auto.
Qed.

Lemma last_opt_eq : forall l, last_opt l = last_error l.
Proof. intros [|x r]; reflexivity. Qed.

(* A checker concatenates clauses, each a list of codes, and is silent iff every clause is.  The lemmas
   below turn a clause, by its shape, into the proposition it tests. *)
Lemma ite_nil : forall (b : bool) (c : N), (if b then [] else [c]) = [] <-> b = true.
Proof. intros [|] c; split; intros H; try reflexivity; discriminate. Qed.

Lemma app_clause : forall (l l' : list N) (P Q : Prop),
  (l = [] <-> P) -> (l' = [] <-> Q) -> (l ++ l' = [] <-> P /\ Q).
Proof. intros l l' P Q <- <-. apply app_nil_iff. Qed.

Lemma ite_clause : forall (b : bool) (c : N) (P : Prop),
  (b = true <-> P) -> ((if b then [] else [c]) = [] <-> P).
Proof. intros b c P <-. apply ite_nil. Qed.

Lemma opt_clause : forall {A} (o : option A) (f : A -> list N) (c : N) (P : A -> Prop),
  (forall v, f v = [] <-> P v) ->
  (match o with Some v => f v | None => [c] end = [] <-> exists v, o = Some v /\ P v).
Proof.
  intros A [v|] f c P H.
  - rewrite H. split; [eauto | intros (v' & E & Hv); inversion E; now subst v'].
  - split; [discriminate | intros (v & E & _); discriminate].
Qed.

Lemma andb_clause : forall (b b' : bool) (P Q : Prop),
  (b = true <-> P) -> (b' = true <-> Q) -> (b && b' = true <-> P /\ Q).
Proof. intros b b' P Q <- <-. apply andb_true_iff. Qed.

Lemma forallb_iff : forall {A} (t : A -> bool) (P : A -> Prop) l,
  (forall x, t x = true <-> P x) -> (forallb t l = true <-> forall x, In x l -> P x).
Proof.
  intros A t P l H. rewrite forallb_forall. split; intros Hl x Hx; apply H, Hl, Hx.
Qed.

Lemma in_slots_from : forall l k x n,
  In (x, n) (slots_from k l) <-> exists i, nth_error l i = Some n /\ x = mkId (k + i) (stamp n).
Proof.
  induction l as [|n0 r IH]; intros k x n; cbn [slots_from In].
  - split; [intros [] | intros ([|i] & H & _); discriminate].
  - rewrite IH. split.
    + intros [E|(i & Hi & ->)].
      * inversion E; subst. exists 0. rewrite Nat.add_0_r. auto.
      * exists (S i). rewrite Nat.add_succ_r. auto.
    + intros ([|i] & Hi & ->).
      * cbn in Hi. inversion Hi; subst. left. rewrite Nat.add_0_r. reflexivity.
      * right. exists i. rewrite Nat.add_succ_r. auto.
Qed.

Lemma in_slots : forall a x n, In (x, n) (slots a) <-> node_at a x n /\ gen x = stamp n.
Proof.
  intros a x n. unfold slots. rewrite in_slots_from. unfold node_at. split.
  - intros (i & Hi & ->). cbn. auto.
  - intros [H G]. exists (idx x). split; auto. destruct x as [i g]. cbn in *. now subst.
Qed.

Lemma in_live_slots : forall a x n,
  In (x, n) (live_slots a) <-> node_at a x n /\ stamp n = gen x /\ (0 <= gen x)%Z.
Proof.
  intros a x n. unfold live_slots. rewrite filter_In, in_slots. cbn [snd].
  rewrite Z.leb_le. split.
  - intros [[H G] S]. rewrite <- G in S. auto.
  - intros (H & G & S). rewrite <- G in S. auto.
Qed.

Lemma ms_live_slot : forall a x n, live a x -> node_at a x n -> In (x, n) (live_slots a).
Proof.
  intros a x n (n' & Hn' & S & G) Hn. unfold node_at in *. apply in_live_slots.
  replace n with n' by congruence. auto.
Qed.

Lemma ms_slot_live : forall a x n, In (x, n) (live_slots a) -> live a x /\ node_at a x n.
Proof.
  intros a x n H. apply in_live_slots in H. destruct H as (H & S & G). split; auto.
  exists n. auto.
Qed.

Lemma live_slot_live : forall a x n, In (x, n) (live_slots a) -> live a x /\ nd a x = n.
Proof. intros a x n H. apply ms_slot_live in H. destruct H as [L H]. split; auto. now apply nd_at. Qed.

Lemma live_in_ids : forall a x, live a x -> In x (live_ids a).
Proof.
  intros a x (n & H & G & S). unfold live_ids. apply in_map_iff. exists (x, n). split; auto.
  apply in_live_slots. auto.
Qed.

Lemma live_ids_bound : forall a L, NoDup L -> (forall y, In y L -> live a y) ->
  length L <= length (live_ids a).
Proof.
  intros a L N LV. apply NoDup_incl_length; auto. intros y Hy. apply live_in_ids. auto.
Qed.

Lemma node_of_nd : forall a x, inr a x -> node_of a x = Some (nd a x).
Proof. intros. unfold node_of. now apply at_nd. Qed.

Lemma live_b_true : forall a x, live a x -> live_b a x = true.
Proof.
  intros a x L. unfold live_b. rewrite node_of_nd by (now apply live_inr).
  destruct (live_stamp _ _ L) as [S G]. rewrite S, Z.eqb_refl. cbn. apply Z.leb_le. exact G.
Qed.

Lemma ms_live_b : forall a x, live_b a x = true -> live a x.
Proof.
  intros a x. unfold live_b, node_of, live, node_at.
  destruct (nth_error (nodes a) (idx x)) as [n|]; intros H; [|discriminate].
  apply andb_true_iff in H. destruct H as [H1 H2].
  apply Z.eqb_eq in H1. apply Z.leb_le in H2. exists n. repeat split; auto. lia.
Qed.

Lemma node_test : forall a c (t : node -> bool) (P : node -> Prop), (forall m, t m = true <-> P m) ->
  (match node_of a c with Some m => t m | None => false end = true <-> exists m, node_at a c m /\ P m).
Proof.
  intros a c t P H. unfold node_of, node_at. destruct (nth_error (nodes a) (idx c)) as [m|].
  - rewrite H. split; [eauto | intros (m' & E & Hm); inversion E; now subst m'].
  - split; [discriminate | intros (m & E & _); discriminate].
Qed.

Lemma live_slots_check : forall a (f : nid * node -> list N) (P : nid -> Prop),
  (forall x, live a x -> (f (x, nd a x) = [] <-> P x)) ->
  (flat_map f (live_slots a) = [] <-> forall x, live a x -> P x).
Proof.
  intros a f P H. rewrite flat_map_nil_iff. split.
  - intros S x L. apply H, S, ms_live_slot; auto. apply at_nd. now apply live_inr.
  - intros S [x n] Hin. apply live_slot_live in Hin. destruct Hin as [L <-]. apply H; auto.
Qed.

Lemma is_path_one : forall a link x, inr a x -> link (nd a x) = None -> is_path a link x [x].
Proof. intros a link x I H. split; auto. exists (nd a x). split; auto. now apply at_nd. Qed.

Lemma is_path_more : forall a link x z r, inr a x -> link (nd a x) = Some z ->
  is_path a link z r -> is_path a link x (x :: r).
Proof.
  intros a link x z r I H P. destruct r as [|z' r']; [destruct P|].
  assert (z' = z) by (destruct P; auto). subst z'.
  split; auto. exists (nd a x). split; [now apply at_nd|]. split; auto.
Qed.

Lemma is_path_inv : forall a link x l, is_path a link x l ->
  exists r, l = x :: r /\ inr a x /\
    match r with [] => link (nd a x) = None | z :: _ => link (nd a x) = Some z /\ is_path a link z r end.
Proof.
  intros a link x [|y r] H; [destruct H|]. destruct H as (-> & n & Hn & H).
  exists r. split; auto. split; [eapply node_inr; eauto|]. apply nd_at in Hn. now subst n.
Qed.

(* the path from an optional start: what [walk_b] and the iterators follow *)
Definition opath (a : arena) (link : node -> option nid) (o : option nid) (l : list nid) : Prop :=
  match o with Some x => is_path a link x l | None => l = [] end.

Lemma opath_hd : forall a link o l, opath a link o l -> o = hd_error l.
Proof.
  intros a link [x|] l H; cbn [opath] in H; [|now subst l].
  apply is_path_inv in H. destruct H as (r & -> & _). reflexivity.
Qed.

Lemma is_path_step : forall a link x l,
  is_path a link x l <-> exists r, l = x :: r /\ inr a x /\ opath a link (link (nd a x)) r.
Proof.
  intros a link x l. split.
  - intros H. apply is_path_inv in H. destruct H as (r & E & I & H). exists r. split; auto. split; auto.
    destruct r as [|z r']; [now rewrite H | destruct H as [-> H]; exact H].
  - intros (r & -> & I & H). destruct (link (nd a x)) as [z|] eqn:E; cbn [opath] in H.
    + eapply is_path_more; eauto.
    + subst r. now apply is_path_one.
Qed.

Lemma is_path_fun : forall a link l x l', is_path a link x l -> is_path a link x l' -> l = l'.
Proof.
  intros a link. induction l as [|y r IH]; intros x l' H H'; [destruct H|].
  apply is_path_step in H, H'. destruct H as (r1 & E & _ & H), H' as (r2 & -> & _ & H').
  inversion E; subst y r1. f_equal.
  destruct (link (nd a x)) as [z|]; cbn [opath] in H, H'; [eauto | congruence].
Qed.

Lemma is_path_all : forall a link (P : nid -> Prop),
  (forall y z, P y -> link (nd a y) = Some z -> P z) ->
  forall l x, is_path a link x l -> P x -> forall y, In y l -> P y.
Proof.
  intros a link P HP. induction l as [|y0 r IH]; intros x H Px y Hy; [destruct Hy|].
  apply is_path_step in H. destruct H as (r1 & E & _ & H). inversion E; subst y0 r1.
  destruct Hy as [<-|Hy]; auto.
  destruct (link (nd a x)) as [z|] eqn:El; cbn [opath] in H; [eauto | subst r; destruct Hy].
Qed.

Lemma is_path_suffix : forall a link l1 x y l2,
  is_path a link x (l1 ++ y :: l2) -> is_path a link y (y :: l2).
Proof.
  intros a link. induction l1 as [|z l1 IH]; intros x y l2 H.
  - cbn [app] in H. destruct H as [-> H]. split; auto.
  - apply is_path_step in H. destruct H as (r & E & _ & H). inversion E; subst z r.
    destruct (link (nd a x)) as [z|]; cbn [opath] in H; [eauto | destruct l1; discriminate].
Qed.

(* a path ends, so it cannot come back to a node it has left *)
Lemma is_path_NoDup : forall a link l x, is_path a link x l -> NoDup l.
Proof.
  intros a link. induction l as [|y r IH]; intros x H; [constructor|].
  pose proof H as H0. apply is_path_step in H. destruct H as (r1 & E & _ & H). inversion E; subst y r1.
  constructor.
  - intros Hi. apply in_split in Hi. destruct Hi as (l1 & l2 & ->).
    pose proof (is_path_suffix a link (x :: l1) x x l2 H0) as H1.
    pose proof (f_equal (@length nid) (is_path_fun _ _ _ _ _ H0 H1)) as E1.
    cbn [length] in E1. rewrite app_length in E1. cbn [length] in E1. lia.
  - destruct (link (nd a x)) as [z|]; cbn [opath] in H; [eauto | subst r; constructor].
Qed.

Lemma walk_b_opath : forall link a fuel o l,
  walk_b link fuel a o = Some l <-> opath a link o l /\ length l <= fuel.
Proof.
  intros link a. induction fuel as [|f IH]; intros [x|] l; cbn [walk_b opath].
  - split; [discriminate|]. intros [P Hl]. destruct l; [destruct P | cbn in Hl; lia].
  - split; [intros E; inversion E; auto | intros [-> _]; reflexivity].
  - rewrite is_path_step. unfold node_of. destruct (nth_error (nodes a) (idx x)) as [n|] eqn:En.
    + rewrite (nd_at _ _ _ En). split.
      * destruct (walk_b link f a (link n)) as [r|] eqn:W; [|discriminate].
        intros E. inversion E; subst l. apply IH in W. destruct W as [T Hl].
        split; [|cbn [length]; lia]. exists r. split; auto. split; auto. eapply node_inr; eauto.
      * intros [(r & -> & _ & T) Hl]. cbn [length] in Hl.
        rewrite (proj2 (IH _ r)) by (split; [exact T | lia]). reflexivity.
    + split; [discriminate|]. intros [(r & _ & I & _) _]. apply at_nd in I. congruence.
  - split; [intros E; inversion E; split; [reflexivity | cbn; lia] | intros [-> _]; reflexivity].
Qed.

Lemma is_path_walk : forall a link l x fuel, is_path a link x l -> length l <= fuel ->
  walk_b link fuel a (Some x) = Some l.
Proof. intros a link l x fuel H Hl. apply walk_b_opath. split; auto. Qed.

Lemma dseg_next_path : forall a o B x pv, dseg a o pv (x :: B) None -> is_path a next x (x :: B).
Proof.
  intros a o. induction B as [|y B IH]; intros x pv D; apply dseg_cons in D;
    destruct D as (I & _ & _ & N & D); cbn in N.
  - now apply is_path_one.
  - eapply is_path_more; eauto.
Qed.

Lemma dseg_opath : forall a o xs pv, dseg a o pv xs None -> opath a next (hd_error xs) xs.
Proof. intros a o [|x B] pv D; [reflexivity|]. eapply dseg_next_path; eauto. Qed.

(* backwards from the last element of a segment that begins a chain, along a link that is [prev] where
   there is one and leads to [e] from the first element; [tl] is the path that continues from [e] *)
Lemma dseg_back_path : forall a link e tl o xs x nx,
  dseg a o None xs nx -> last_error xs = Some x ->
  (forall y, In y xs -> link (nd a y) = or_else (prev (nd a y)) e) ->
  opath a link e tl -> is_path a link x (rev xs ++ tl).
Proof.
  intros a link e tl o. induction xs as [|y A IH] using rev_ind; intros x nx D HL Hl T; [discriminate|].
  rewrite last_error_snoc in HL. inversion HL; subst y. rewrite rev_unit. cbn [app].
  assert (Hx : In x (A ++ [x])) by (apply in_elt).
  apply is_path_step. exists (rev A ++ tl). split; [reflexivity|]. split; [eapply dseg_inr; eauto|].
  rewrite (Hl x Hx). destruct (dseg_mid _ _ _ _ _ _ _ D) as [-> _].
  apply dseg_app in D. destruct D as [D _].
  destruct (last_error A) as [z|] eqn:EA; cbn [or_else opath].
  - apply (IH z _ D eq_refl); auto. intros y Hy. apply Hl, in_or_app. now left.
  - apply last_error_None in EA. subst A. exact T.
Qed.

Lemma dseg_prev_path : forall a o A x nx, dseg a o None (A ++ [x]) nx ->
  is_path a prev x (rev (A ++ [x])).
Proof.
  intros a o A x nx D. rewrite <- (app_nil_r (rev (A ++ [x]))).
  apply (dseg_back_path a prev None [] _ _ _ _ D (last_error_snoc _ _)); [|reflexivity].
  intros y _. destruct (prev (nd a y)); reflexivity.
Qed.

(* C02 *)

Lemma walk_clause : forall a link x (c : N),
  match walk_b link (length (nodes a)) a (Some x) with Some _ => [] | None => [c] end = [] <->
  exists l, is_path a link x l /\ length l <= length (nodes a).
Proof.
  intros a link x c. destruct (walk_b link _ a (Some x)) as [l|] eqn:W.
  - split; [intros _; exists l; exact (proj1 (walk_b_opath _ _ _ _ _) W) | reflexivity].
  - split; [discriminate | intros [l H]; apply (walk_b_opath link a _ (Some x)) in H; congruence].
Qed.

Theorem c02_check_iff : forall a, c02_check a = [] <-> forall x, live a x ->
  (exists l, is_path a parent x l /\ (length l <= length (nodes a))%nat) /\
  (exists l, is_path a next x l /\ (length l <= length (nodes a))%nat) /\
  (exists l, is_path a prev x l /\ (length l <= length (nodes a))%nat).
Proof.
  intros a. apply live_slots_check. intros x _. cbn [c02_node].
  apply app_clause; [apply walk_clause|]. apply app_clause; apply walk_clause.
Qed.

Theorem c02_check_sound : forall a, c02_check a = [] -> forall x, live a x ->
  (exists l, is_path a parent x l /\ (length l <= length (nodes a))%nat) /\
  (exists l, is_path a next x l /\ (length l <= length (nodes a))%nat) /\
  (exists l, is_path a prev x l /\ (length l <= length (nodes a))%nat).
Proof. intros a. apply c02_check_iff. Qed.

(* C12, state part *)

Lemma is_some_false : forall {A} (o : option A), is_some o = false -> o = None.
Proof. intros A [v|] H; [discriminate|reflexivity]. Qed.

Theorem c12_state_iff : forall a, c12_state a = [] <->
  forall i n, nth_error (nodes a) i = Some n -> (stamp n < 0)%Z ->
    parent n = None /\ prev n = None /\ next n = None /\ first n = None /\ last n = None.
Proof.
  intros a. unfold c12_state. rewrite flat_map_nil_iff. split.
  - intros H i n Hn Hs.
    assert (Hin : In (mkId i (stamp n), n) (slots a)) by (apply in_slots; split; [exact Hn | reflexivity]).
    apply H in Hin. cbn [snd] in Hin. apply Z.ltb_lt in Hs. rewrite Hs in Hin. cbn [andb] in Hin.
    destruct (_ || _) eqn:E in Hin; [discriminate|]. rewrite !orb_false_iff in E.
    destruct E as ((((E1 & E2) & E3) & E4) & E5). repeat split; now apply is_some_false.
  - intros H [x n] Hin. apply in_slots in Hin. destruct Hin as [Hn _]. cbn [snd].
    destruct (stamp n <? 0)%Z eqn:E; [|reflexivity].
    apply Z.ltb_lt in E. destruct (H _ _ Hn E) as (-> & -> & -> & -> & ->). reflexivity.
Qed.

Theorem c12_state_sound : forall a, c12_state a = [] ->
  forall i n, nth_error (nodes a) i = Some n -> (stamp n < 0)%Z ->
    parent n = None /\ prev n = None /\ next n = None /\ first n = None /\ last n = None.
Proof. intros a. apply c12_state_iff. Qed.

(* C01: the clauses of c01_node *)

Lemma olink_live_iff : forall a o, olink_live a o = true <-> forall z, o = Some z -> live a z.
Proof.
  intros a [y|]; cbn [olink_live]; split.
  - intros H z E. inversion E; subst z. now apply ms_live_b.
  - intros H. apply live_b_true. auto.
  - discriminate.
  - reflexivity.
Qed.

Lemma links_live_iff : forall a n,
  forallb (olink_live a) [parent n; prev n; next n; first n; last n] = true <->
  forall f z, getf f n = Some z -> live a z.
Proof.
  intros a n. rewrite forallb_forall. split.
  - intros H f z E. apply ms_live_b, (H (Some z)). rewrite <- E. destruct f; cbn; auto 6.
  - intros H o Ho. apply olink_live_iff. intros z ->. cbn [In] in Ho.
    destruct Ho as [E|[E|[E|[E|[E|[]]]]]];
      [apply (H Fparent) | apply (H Fprev) | apply (H Fnext) | apply (H Ffirst) | apply (H Flast)]; exact E.
Qed.

(* the clause for a sibling link [o] of x: the node it names links back through [back] *)
Lemma link_clause_iff : forall a (x : nid) (pn o : option nid) (back : node -> option nid),
  (match o with
   | Some y => match node_of a y with
               | Some m => (if onid_eqb (back m) (Some x) then [] else [2%N]) ++
                           (if onid_eqb (parent m) pn then [] else [3%N])
               | None => [1%N] end
   | None => [] end) = [] <->
  forall y, o = Some y -> exists m, node_at a y m /\ back m = Some x /\ parent m = pn.
Proof.
  intros a x pn [y|] back; [|split; [discriminate | reflexivity]].
  etransitivity; [apply opt_clause; intros m; apply app_clause; apply ite_clause, onid_eqb_eq|].
  split; [intros H y' E; inversion E; now subst y' | intros H; now apply H].
Qed.

Lemma ends_iff : forall o o' : option nid,
  Bool.eqb (is_some o) (is_some o') = true <-> (o = None <-> o' = None).
Proof. intros [x|] [y|]; cbn; intuition congruence. Qed.

(* the clauses for the chain of children: what they say of the list [ch] that the walk returns *)
Definition chain_ok (a : arena) (x : nid) (lst : option nid) (ch : list nid) : Prop :=
  NoDup ch /\ lst = last_error ch /\
  ((forall c, In c ch -> exists m, node_at a c m /\ parent m = Some x) /\
   (forall c, hd_error ch = Some c -> exists m, node_at a c m /\ prev m = None)) /\
  (forall ym, In ym (live_slots a) -> parent (snd ym) = Some x -> In (fst ym) ch).

Lemma c01_node_iff : forall a x n, c01_node a (x, n) = [] <->
  (forall f z, getf f n = Some z -> live a z) /\
  (forall y, next n = Some y -> exists m, node_at a y m /\ prev m = Some x /\ parent m = parent n) /\
  (forall y, prev n = Some y -> exists m, node_at a y m /\ next m = Some x /\ parent m = parent n) /\
  (first n = None <-> last n = None) /\
  exists ch, walk_b next (S (length (nodes a))) a (first n) = Some ch /\ chain_ok a x (last n) ch.
Proof.
  intros a x n. cbn [c01_node].
  apply app_clause; [apply ite_clause, links_live_iff|]. apply app_clause; [apply link_clause_iff|].
  apply app_clause; [apply link_clause_iff|]. apply app_clause; [apply ite_clause, ends_iff|].
  (* the chain of children, codes 5 to 8 *)
  apply opt_clause. intros ch.
  apply app_clause; [apply ite_clause, nodup_b_NoDup|].
  apply app_clause; [apply ite_clause; rewrite last_opt_eq, onid_eqb_eq; split; auto|].
  apply app_clause; apply ite_clause.
  - apply andb_clause.
    + apply forallb_iff. intros c. apply node_test. intros m. apply onid_eqb_eq.
    + destruct ch as [|c r]; cbn [hd_error]; [split; [discriminate | reflexivity]|].
      rewrite (node_test a c _ (fun m => prev m = None)).
      * split; [intros H c' E; inversion E; now subst c' | auto].
      * intros m. destruct (prev m); cbn; split; auto; discriminate.
  - apply forallb_iff. intros [y m]. cbn [fst snd].
    rewrite <- nid_in_In, <- (onid_eqb_eq (parent m)).
    destruct (onid_eqb (parent m) (Some x)), (nid_in y ch); cbn; intuition congruence.
Qed.

Lemma path_dseg : forall a p,
  (forall c z, live a c -> next (nd a c) = Some z -> live a z /\ prev (nd a z) = Some c) ->
  forall l o pv, opath a next o l ->
  (forall c, o = Some c -> live a c /\ prev (nd a c) = pv) ->
  (forall c, In c l -> parent (nd a c) = p) ->
  dseg a p pv l None /\ (forall c, In c l -> live a c).
Proof.
  intros a p Hnext. induction l as [|y r IH]; intros [c|] pv T Ho Hp; cbn [opath] in T;
    try discriminate T; [destruct T | split; [exact I | intros c []] |].
  apply is_path_step in T. destruct T as (r' & E & Ic & T). inversion E; subst y r'.
  destruct (Ho c eq_refl) as [Lc V].
  destruct (IH (next (nd a c)) (Some c) T) as [D Lr].
  - intros z Ez. now apply Hnext.
  - intros z Hz. apply Hp. now right.
  - split; [|intros z [<-|Hz]; auto].
    apply dseg_cons. repeat split; auto; [apply Hp; now left|].
    rewrite (opath_hd _ _ _ _ T). now destruct (hd_error r).
Qed.

Theorem c01_check_sound : forall a, c01_check a = [] -> LinksOK a.
Proof.
  intros a HS.
  assert (At : forall x, live a x -> c01_node a (x, nd a x) = []).
  { apply (live_slots_check a (c01_node a)); [reflexivity | exact HS]. }
  assert (Hnext : forall c z, live a c -> next (nd a c) = Some z -> live a z /\ prev (nd a z) = Some c).
  { intros c z L E. apply At, c01_node_iff in L. destruct L as (H1 & H2 & _).
    split; [exact (H1 Fnext z E)|]. destruct (H2 z E) as (m & Hm & V & _). now rewrite (nd_at _ _ _ Hm). }
  intros x n L Hn. pose proof (nd_at _ _ _ Hn) as En. pose proof (At x L) as Hx. rewrite En in Hx.
  apply c01_node_iff in Hx. destruct Hx as (H1 & H2 & H3 & H4 & ch & W & N & E & (Hp & Hh) & Hall).
  apply walk_b_opath in W. destruct W as [T _].
  repeat (split; [assumption|]). exists ch.
  destruct (path_dseg a (Some x) Hnext ch (first n) None T) as [D Lch].
  - intros c Ec. split; [exact (H1 Ffirst c Ec)|].
    rewrite (opath_hd _ _ _ _ T) in Ec. destruct (Hh c Ec) as (m & Hm & V). now rewrite (nd_at _ _ _ Hm).
  - intros c Hc. destruct (Hp c Hc) as (m & Hm & P). now rewrite (nd_at _ _ _ Hm).
  - split; [exact D|]. split; [exact N|]. split; [eapply opath_hd; eauto|]. split; [exact E|].
    intros c. split; [intros Hc; auto|]. intros (Lc & m & Hm & P). apply (Hall (c, m)); [now apply ms_live_slot | exact P].
Qed.

Theorem c01_check_complete : forall a, LinksOK a -> c01_check a = [].
Proof.
  intros a H. apply flat_map_nil_iff. intros [x n] Hin. destruct (ms_slot_live _ _ _ Hin) as [L Hn].
  destruct (H x n L Hn) as (H1 & H2 & H3 & H4 & ch & D & N & E1 & E2 & Hch).
  apply c01_node_iff. repeat (split; [assumption|]). exists ch.
  split.
  { apply walk_b_opath. split; [rewrite E1; eapply dseg_opath; eauto|].
    pose proof (live_list_bound a ch N (fun c Hc => proj1 (proj1 (Hch c) Hc))). lia. }
  split; [exact N|]. split; [exact E2|]. split; [split|].
  - intros c Hc. now apply Hch.
  - intros c Hc. exists (nd a c). split; [|eapply dseg_hd; eauto].
    apply at_nd. eapply dseg_inr; eauto. now apply hd_error_In.
  - intros [y m] Hy P. apply ms_slot_live in Hy. destruct Hy as [Ly Hm]. apply Hch. eauto.
Qed.

Print Assumptions c01_check_sound.
Print Assumptions c12_state_sound.
Print Assumptions c02_check_sound.
