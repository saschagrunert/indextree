(* SrcPrint.v — gen/GenPrint.v (the IndentWriter state machine of debug_pretty_print.rs, re-translated from the
   Rust text on every run) refines the model's Printer.v.  The regenerated writer keeps `indents` in the Vec's own
   order; the model keeps it reversed (a stack): [absw] is the abstraction function. *)
From IT.proofs Require Import SrcTac PrinterProofs.
From IT.gen Require Import GenPrint.
Require Import Lia.
Open Scope mon_scope.

Definition absw (g : gwriter) : writer := mkWriter (g_out g) (g_lst g) (rev (g_ind g)) (g_pend g).

Definition map_res {A B} (f : A -> B) (r : res A) : res B :=
  match r with Ok x => Ok (f x) | Panic c => Panic c | Diverge => Diverge end.

(* `pending` must not exceed the height of the stack when complete_partial_indent reads it; the only state in which
   it is read is PartialIndent, right after write_indent_partial computed it, so [gw_inv] is all a print maintains *)
Definition gw_ok (g : gwriter) : Prop := (g_pend g <= length (g_ind g))%nat.
Definition gw_inv (g : gwriter) : Prop := g_lst g = PartialIndent -> (g_pend g <= length (g_ind g))%nat.

Lemma src_as_str i : g_IndentedBlockState_as_str i = as_str i.
Proof. destruct i as [[|] [|]]; reflexivity. Qed.
Lemma src_as_str_leading i : g_IndentedBlockState_as_str_leading i = as_str_leading i.
Proof. destruct i as [[|] [|]]; reflexivity. Qed.
Lemma src_as_str_trailing_spaces i : g_IndentedBlockState_as_str_trailing_spaces i = as_str_trailing_spaces i.
Proof. destruct i as [[|] [|]]; reflexivity. Qed.
Lemma src_is_all_whitespace i : g_IndentedBlockState_is_all_whitespace i = is_all_whitespace i.
Proof. reflexivity. Qed.

Lemma rev_upd_last {A} (f : A -> A) l :
  rev (upd_last f l) = match rev l with x :: t => f x :: t | [] => [] end.
Proof.
  unfold upd_last. destruct (rev l); [reflexivity|].
  rewrite rev_app_distr, rev_involutive. reflexivity.
Qed.

Lemma length_upd_last {A} (f : A -> A) l : length (upd_last f l) = length l.
Proof.
  rewrite <- (rev_length (upd_last f l)), rev_upd_last, <- (rev_length l).
  destruct (rev l); reflexivity.
Qed.

Lemma rev_removelast {A} (l : list A) : rev (removelast l) = tl (rev l).
Proof.
  destruct l using rev_ind; [reflexivity|].
  rewrite removelast_last, rev_app_distr. reflexivity.
Qed.

Lemma src_open_item g b : absw (g_IndentWriter_open_item g b) = open_item b (absw g).
Proof.
  destruct g as [o l i p]. unfold g_IndentWriter_open_item, open_item, absw.
  destruct l; cbn; rewrite rev_app_distr, rev_upd_last; cbn;
    destruct (rev i) as [|[x y] t]; reflexivity.
Qed.

Lemma src_close_item g :
  close_item (absw g) = (let '(g', ok) := g_IndentWriter_close_item g in if ok then Some (absw g') else None).
Proof.
  destruct g as [o l i p]. unfold g_IndentWriter_close_item, close_item, absw, last_opt, set_g_ind.
  cbn [g_ind g_out g_lst g_pend indents out lst pending].
  pose proof (rev_removelast i) as E. destruct (rev i); cbn [g_ind g_out g_lst g_pend]; [reflexivity|].
  rewrite E. reflexivity.
Qed.

Lemma count_while_ws l :
  count_while (fun x_1 => let v_i_2 := x_1 in g_IndentedBlockState_is_all_whitespace v_i_2) l = count_leading_ws l.
Proof.
  induction l as [|x t IH]; [reflexivity|]. cbn [count_while count_leading_ws]. cbv zeta in *.
  rewrite IH. reflexivity.
Qed.

Lemma fold_out_as_str tp g :
  fold_left (fun s_7 v_indent_8 =>
               let v_self_9 := set_g_out (g_out s_7 ++ g_IndentedBlockState_as_str v_indent_8)%list s_7 in v_self_9) tp g
  = set_g_out (g_out g ++ flat_map as_str tp) g.
Proof.
  revert g; induction tp as [|x t IH]; intro g.
  - destruct g; unfold set_g_out; cbn. rewrite app_nil_r. reflexivity.
  - cbn [fold_left flat_map]. rewrite IH, src_as_str. destruct g; unfold set_g_out; cbn.
    rewrite <- app_assoc. reflexivity.
Qed.

(* write_indent_partial as one record: it touches the output and `pending` only *)
Lemma wip_eq g :
  g_IndentWriter_write_indent_partial g
  = mkGW (g_out g ++ indent_prefix (rev (skipn (count_leading_ws (rev (g_ind g))) (rev (g_ind g)))))
         (g_lst g) (g_ind g) (count_leading_ws (rev (g_ind g))).
Proof.
  destruct g as [o l i p].
  unfold g_IndentWriter_write_indent_partial, count_trailing.
  cbn [set_g_pend g_ind g_out g_lst g_pend].
  rewrite count_while_ws, skipn_rev, rev_involutive.
  set (tp := firstn (length i - count_leading_ws (rev i)) i).
  destruct tp as [|x t _] using rev_ind.
  - cbn. rewrite app_nil_r. reflexivity.
  - unfold last_opt. rewrite rev_app_distr. cbn [rev app].
    rewrite fold_out_as_str, app_length. cbn [length].
    replace (length t + 1 - 1)%nat with (length t + 0)%nat by lia.
    rewrite firstn_app_2. cbn [firstn]. rewrite app_nil_r, src_as_str_leading, indent_prefix_snoc, <- flat_map_concat_map.
    unfold set_g_out; cbn. rewrite <- app_assoc. reflexivity.
Qed.

Lemma src_write_indent_partial g :
  absw (g_IndentWriter_write_indent_partial g) = write_indent_partial (absw g).
Proof. rewrite wip_eq. reflexivity. Qed.

Lemma wip_ind g : g_ind (g_IndentWriter_write_indent_partial g) = g_ind g.
Proof. rewrite wip_eq. reflexivity. Qed.

Lemma wip_lst g : g_lst (g_IndentWriter_write_indent_partial g) = g_lst g.
Proof. rewrite wip_eq. reflexivity. Qed.

Lemma src_write_indent_partial_ok g : gw_ok (g_IndentWriter_write_indent_partial g).
Proof.
  rewrite wip_eq. unfold gw_ok. cbn [g_pend g_ind].
  rewrite <- (rev_length (g_ind g)). apply count_leading_ws_le.
Qed.

Lemma dassert_bind {A} dbg b (k : unit -> M A) :
  bind (when_dbg dbg (dassert true b)) k = if dbg && negb b then panic P_DEBUG_ASSERT else k tt.
Proof. destruct dbg; [destruct b|]; reflexivity. Qed.

Lemma fold_out_spaces n k g :
  fold_left (fun s_5 (_ : nat) =>
               let v_self_6 := set_g_out (g_out s_5 ++ [32%N; 32%N; 32%N; 32%N])%list s_5 in v_self_6) (seq k n) g
  = set_g_out (g_out g ++ repeat_bytes n [SP; SP; SP; SP]) g.
Proof.
  revert k g; induction n as [|n IH]; intros k g.
  - destruct g; unfold set_g_out; cbn. rewrite app_nil_r. reflexivity.
  - cbn [seq fold_left repeat_bytes]. rewrite IH. destruct g; unfold set_g_out; cbn.
    rewrite <- app_assoc. reflexivity.
Qed.

Lemma nth_error_rev {A} (l : list A) p : (p < length l)%nat ->
  nth_error (rev l) p = nth_error l (length l - S p).
Proof.
  intro H. destruct l as [|d l']; [cbn in H; lia|]. set (l := d :: l') in *.
  rewrite (nth_error_nth' (rev l) d) by (rewrite rev_length; exact H).
  rewrite (nth_error_nth' l d) by lia.
  rewrite rev_nth by exact H. reflexivity.
Qed.

(* the generated function never touches the arena: its result as a pure value *)
Definition cpi_fin (g : gwriter) : gwriter :=
  set_g_pend 0%nat (set_g_out (g_out g ++ repeat_bytes (g_pend g) [SP; SP; SP; SP]) g).

Definition cpi_res (dbg : bool) (g : gwriter) : res gwriter :=
  if dbg && negb (lstate_eqb (g_lst g) PartialIndent) then Panic P_DEBUG_ASSERT
  else match (length (g_ind g) - g_pend g)%nat with
       | O => Ok (cpi_fin g)
       | S k => match nth_error (g_ind g) k with
                | Some x => Ok (cpi_fin (set_g_out (g_out g ++ as_str_trailing_spaces x) g))
                | None => Panic P_INDEX
                end
       end.

Lemma cpi_eq dbg g a : g_IndentWriter_complete_partial_indent dbg g a = (a, cpi_res dbg g).
Proof.
  unfold g_IndentWriter_complete_partial_indent, cpi_res, cpi_fin. rewrite dassert_bind.
  destruct (dbg && negb (lstate_eqb (g_lst g) PartialIndent)); [reflexivity|].
  unfold bind, ret, panic.
  destruct (length (g_ind g) - g_pend g)%nat as [|k]; [rewrite fold_out_spaces; reflexivity|].
  destruct (nth_error (g_ind g) k) as [x|]; [|reflexivity].
  rewrite fold_out_spaces, src_as_str_trailing_spaces. reflexivity.
Qed.

Lemma cpi_abs dbg g : gw_ok g ->
  map_res absw (cpi_res dbg g) = complete_partial_indent dbg (absw g) /\
  (forall g', cpi_res dbg g = Ok g' -> g_pend g' = 0%nat /\ g_ind g' = g_ind g).
Proof.
  destruct g as [o l i p]. unfold gw_ok, cpi_res, complete_partial_indent, absw, cpi_fin.
  cbn [g_ind g_out g_lst g_pend indents out lst pending set_g_out set_g_pend]. intro H.
  destruct (dbg && negb (lstate_eqb l PartialIndent)); [split; [reflexivity|discriminate]|].
  rewrite rev_length.
  replace (Nat.ltb (length i) p) with false by (symmetry; apply Nat.ltb_ge; exact H).
  destruct (length i - p)%nat as [|k] eqn:E.
  - assert (nth_error (rev i) p = None) as ->
        by (apply nth_error_None; rewrite rev_length; lia).
    split; [reflexivity|]. intros g' [= <-]. split; reflexivity.
  - rewrite nth_error_rev by lia.
    replace (length i - S p)%nat with k by lia.
    destruct (nth_error i k) as [x|] eqn:En.
    + split.
      * cbn. rewrite <- app_assoc. reflexivity.
      * intros g' [= <-]. split; reflexivity.
    + apply nth_error_None in En. lia.
Qed.

Lemma src_complete_partial_indent dbg g a : gw_ok g ->
  exists r, g_IndentWriter_complete_partial_indent dbg g a = (a, r) /\
            map_res absw r = complete_partial_indent dbg (absw g) /\
            (forall g', r = Ok g' -> gw_ok g' /\ g_ind g' = g_ind g).
Proof.
  intro H. exists (cpi_res dbg g). split; [apply cpi_eq|]. destruct (cpi_abs dbg g H) as [E1 E2].
  split; [exact E1|]. intros g' Hg'. destruct (E2 g' Hg') as [Ep Ei].
  split; [|exact Ei]. unfold gw_ok. rewrite Ep. lia.
Qed.

Lemma segs_find_nl s cur :
  segs s cur = match find_nl s with
               | Some pos => (rev cur ++ firstn (pos + 1) s, true) :: segs (skipn (pos + 1) s) []
               | None => match rev cur ++ s with [] => [] | l => [(l, false)] end
               end.
Proof.
  revert cur; induction s as [|c s IH]; intro cur.
  - cbn [segs find_nl]. rewrite app_nil_r. destruct cur as [|x t]; [reflexivity|].
    destruct (rev (x :: t)) eqn:E; [|reflexivity].
    apply (f_equal (@length _)) in E. rewrite rev_length in E. discriminate.
  - cbn [segs find_nl]. change (c =? 10)%N with (c =? NL)%N. destruct (c =? NL)%N.
    + cbn. reflexivity.
    + rewrite IH. destruct (find_nl s) as [pos|]; cbn [option_map].
      * cbn [rev]. rewrite <- app_assoc. replace (S pos + 1)%nat with (S (pos + 1)) by lia. reflexivity.
      * cbn [rev]. rewrite <- app_assoc. reflexivity.
Qed.

(* the end of an iteration: the segment goes out and the top entry's first-line flag is updated *)
Definition gfin (content : list N) (nl : bool) (g : gwriter) : gwriter :=
  set_g_lst (if nl then BeforeIndent else Content)
    (set_g_out (g_out g ++ content)
       (set_g_ind (upd_last (fun e => (fst e, snd e && negb nl)) (g_ind g)) g)).
Definition wfin (content : bytes) (nl : bool) (w : writer) : writer :=
  mkWriter (out w ++ content) (if nl then BeforeIndent else Content)
           (set_top_first_line (fun fl => fl && negb nl) (indents w)) (pending w).

Lemma gfin_abs content nl g : absw (gfin content nl g) = wfin content nl (absw g).
Proof.
  destruct g as [o l i p]. unfold gfin, wfin, absw.
  cbn [g_ind g_out g_lst g_pend indents out lst pending set_g_out set_g_ind set_g_lst].
  rewrite rev_upd_last. destruct (rev i) as [|[x y] t]; reflexivity.
Qed.

Lemma gfin_fields content nl g :
  g_lst (gfin content nl g) <> PartialIndent /\
  length (g_ind (gfin content nl g)) = length (g_ind g) /\ g_pend (gfin content nl g) = g_pend g.
Proof.
  destruct g as [o l i p]. cbn [gfin g_ind g_out g_lst g_pend set_g_out set_g_ind set_g_lst].
  rewrite length_upd_last. destruct nl; repeat split; discriminate.
Qed.

(* one iteration of the generated loop as a pure value *)
Definition gstep_res (dbg : bool) (g : gwriter) (content : list N) (nl : bool) : res gwriter :=
  let g3 := if lstate_eqb (g_lst g) BeforeIndent
            then set_g_lst PartialIndent (g_IndentWriter_write_indent_partial g) else g in
  map_res (gfin content nl) (if lstate_eqb (g_lst g3) PartialIndent then cpi_res dbg g3 else Ok g3).

Lemma cpi_gfin dbg content nl g : gw_ok g ->
  map_res absw (map_res (gfin content nl) (cpi_res dbg g))
  = map_res (wfin content nl) (complete_partial_indent dbg (absw g)) /\
  (forall g', map_res (gfin content nl) (cpi_res dbg g) = Ok g' ->
     g_lst g' <> PartialIndent /\ length (g_ind g') = length (g_ind g) /\ g_pend g' = 0%nat).
Proof.
  intro H. destruct (cpi_abs dbg g H) as [E1 E2]. rewrite <- E1.
  destruct (cpi_res dbg g) as [g1| |]; cbn [map_res]; [|split; [reflexivity|discriminate]..].
  destruct (E2 g1 eq_refl) as [Ep Ei]. destruct (gfin_fields content nl g1) as (F1 & F2 & F3).
  split; [rewrite gfin_abs; reflexivity|]. intros g' [= <-]. rewrite F2, F3, Ei, Ep. auto.
Qed.

(* One iteration refines write_seg.  Whatever `pending` was, it is read only after write_indent_partial has set it
   or in PartialIndent, where [gw_inv] speaks; afterwards it is 0 or untouched. *)
Lemma gstep_abs dbg g content nl : gw_inv g ->
  map_res absw (gstep_res dbg g content nl) = write_seg dbg (content, nl) (absw g) /\
  (forall g', gstep_res dbg g content nl = Ok g' ->
     g_lst g' <> PartialIndent /\ length (g_ind g') = length (g_ind g) /\ (g_pend g' <= g_pend g)%nat).
Proof.
  intro H. unfold gstep_res, write_seg. change (lst (absw g)) with (g_lst g).
  destruct (g_lst g) eqn:El; cbn [lstate_eqb].
  - destruct (cpi_gfin dbg content nl (set_g_lst PartialIndent (g_IndentWriter_write_indent_partial g))
                (src_write_indent_partial_ok g)) as [E1 E2].
    rewrite <- src_write_indent_partial. split; [exact E1|].
    intros g' Hg'. destruct (E2 g' Hg') as (Q1 & Q2 & Q3).
    cbn [g_ind set_g_lst] in Q2. rewrite wip_ind in Q2. repeat split; auto. lia.
  - destruct (cpi_gfin dbg content nl g (H El)) as [E1 E2].
    change (lst (absw g)) with (g_lst g). rewrite El. split; [exact E1|].
    intros g' Hg'. destruct (E2 g' Hg') as (Q1 & Q2 & Q3). repeat split; auto. lia.
  - change (lst (absw g)) with (g_lst g). rewrite El. cbn [lstate_eqb map_res].
    split; [rewrite gfin_abs; reflexivity|].
    intros g' [= <-]. destruct (gfin_fields content nl g) as (F1 & F2 & F3). rewrite F3. auto.
Qed.

(* `line_end` and `ends_with_newline` of an iteration on s *)
Definition cut (s : list N) : nat * bool :=
  match find_nl s with
  | Some pos => ((pos + 1)%nat, true)
  | None => (length s, false)
  end.

Lemma loop_step dbg f c s' g a le nl :
  cut (c :: s') = (le, nl) ->
  g_IndentWriter_write_str_loop1 dbg (S f) (c :: s') g a =
  match gstep_res dbg g (firstn le (c :: s')) nl with
  | Ok g' => g_IndentWriter_write_str_loop1 dbg f (skipn le (c :: s')) g' a
  | Panic e => (a, Panic e)
  | Diverge => (a, Diverge)
  end.
Proof.
  unfold cut. intro E.
  assert (exists le', le = S le') as [le' ->].
  { destruct (find_nl (c :: s')) as [pos|]; injection E as <- _; [exists pos; lia|exists (length s'); reflexivity]. }
  cbn [g_IndentWriter_write_str_loop1 negb].
  unfold gstep_res, gfin.
  set (g3 := if lstate_eqb (g_lst g) BeforeIndent
             then set_g_lst PartialIndent (g_IndentWriter_write_indent_partial g) else g).
  assert (H3 : lstate_eqb (g_lst g3) BeforeIndent = false).
  { subst g3. destruct (lstate_eqb (g_lst g) BeforeIndent) eqn:Eb; [reflexivity|exact Eb]. }
  unfold bind at 1.
  replace ((if lstate_eqb (g_lst g) BeforeIndent
            then ret (set_g_lst PartialIndent (g_IndentWriter_write_indent_partial g))
            else ret g) a) with (a, Ok g3)
    by (subst g3; destruct (lstate_eqb (g_lst g) BeforeIndent); reflexivity).
  clearbody g3.
  unfold bind at 1.
  replace ((match find_nl (c :: s') with
            | Some v_pos_4 => ret ((v_pos_4 + 1)%nat, true)
            | None => ret (length (c :: s'), false)
            end) a) with (a, Ok (S le', nl))
    by (rewrite <- E; destruct (find_nl (c :: s')); reflexivity).
  cbn [firstn negb]. rewrite H3.
  rewrite dassert_bind, andb_false_r.
  replace (if nl then ret BeforeIndent else ret Content) with (ret (if nl then BeforeIndent else Content))
    by (destruct nl; reflexivity).
  destruct (lstate_eqb (g_lst g3) PartialIndent); [|reflexivity].
  unfold bind, ret. cbv beta iota. rewrite cpi_eq. destruct (cpi_res dbg g3); reflexivity.
Qed.

(* a generated function, run on arena a, leaves the arena alone, returns the model's result seen through [absw],
   and an Ok result satisfies P *)
Definition refines (run : arena * res gwriter) (a : arena) (spec : res writer) (P : gwriter -> Prop) : Prop :=
  exists r, run = (a, r) /\ map_res absw r = spec /\ (forall g', r = Ok g' -> P g').

Lemma refines_weaken run a spec (P Q : gwriter -> Prop) :
  refines run a spec P -> (forall g', P g' -> Q g') -> refines run a spec Q.
Proof. intros (r & Hr & Hs & HP) HQ. exists r. auto. Qed.

Lemma refines_ret a g (P : gwriter -> Prop) : P g -> refines (a, Ok g) a (Ok (absw g)) P.
Proof. intro H. exists (Ok g). split; [reflexivity|]. split; [reflexivity|]. intros g' [= <-]. exact H. Qed.

Lemma refines_panic a e Q : refines (a, Panic e) a (Panic e) Q.
Proof. exists (Panic e). split; [reflexivity|]. split; [reflexivity|]. discriminate. Qed.

Lemma refines_diverge a Q : refines (a, Diverge) a Diverge Q.
Proof. exists Diverge. split; [reflexivity|]. split; [reflexivity|]. discriminate. Qed.

Lemma refines_seq (r1 : res gwriter) k a cont Q :
  (forall g1, r1 = Ok g1 -> refines (k g1) a (cont (absw g1)) Q) ->
  refines (match r1 with Ok g1 => k g1 | Panic e => (a, Panic e) | Diverge => (a, Diverge) end) a
          (match map_res absw r1 with Ok w => cont w | Panic e => Panic e | Diverge => Diverge end) Q.
Proof.
  intro H. destruct r1 as [g1|e|]; cbn [map_res].
  - apply H. reflexivity.
  - apply refines_panic.
  - apply refines_diverge.
Qed.

Lemma refines_bind (m : M gwriter) k a spec1 cont P Q :
  refines (m a) a spec1 P ->
  (forall g1, P g1 -> refines (k g1 a) a (cont (absw g1)) Q) ->
  refines (bind m k a) a (match spec1 with Ok w => cont w | Panic e => Panic e | Diverge => Diverge end) Q.
Proof.
  intros (r & Hr & <- & HP) Hk. unfold bind. rewrite Hr.
  apply (refines_seq r (fun g1 => k g1 a)). intros g1 E. apply Hk, HP, E.
Qed.

(* a step of a read-only computation, which both sides run alike *)
Lemma refines_lift {A} (m : R A) k kr a Q :
  (forall x, m a = Ok x -> refines (k x a) a (kr x a) Q) ->
  refines (bind (lift m) k a) a (rbind m kr a) Q.
Proof.
  intro H. unfold bind, lift, rbind. destruct (m a) as [x|e|].
  - apply H. reflexivity.
  - apply refines_panic.
  - apply refines_diverge.
Qed.

(* what a write may do to the bookkeeping: the stack keeps its height, `pending` does not grow, and the writer is in
   PartialIndent afterwards only if it was before *)
Definition gw_le (g g' : gwriter) : Prop :=
  length (g_ind g') = length (g_ind g) /\ (g_pend g' <= g_pend g)%nat /\
  (g_lst g' = PartialIndent -> g_lst g = PartialIndent).

Lemma gw_le_intro g g' : g_lst g' <> PartialIndent ->
  length (g_ind g') = length (g_ind g) -> (g_pend g' <= g_pend g)%nat -> gw_le g g'.
Proof. intros N L P. split; [exact L|]. split; [exact P|]. intro Hp. destruct (N Hp). Qed.

Lemma gw_le_refl g : gw_le g g.
Proof. unfold gw_le. auto. Qed.

Lemma gw_le_trans g1 g2 g3 : gw_le g1 g2 -> gw_le g2 g3 -> gw_le g1 g3.
Proof. unfold gw_le. intros (A1 & A2 & A3) (B1 & B2 & B3). repeat split; [congruence|lia|auto]. Qed.

Lemma gw_le_ok g g' : gw_le g g' -> gw_ok g -> gw_ok g'.
Proof. unfold gw_le, gw_ok. intros (A1 & A2 & _) H. lia. Qed.

Lemma gw_le_inv g g' : gw_le g g' -> gw_inv g -> gw_inv g'.
Proof. unfold gw_le, gw_inv. intros (A1 & A2 & A3) H Hp. specialize (H (A3 Hp)). lia. Qed.

(* they cut off the first segment of [segs] *)
Lemma segs_first c s' le nl :
  cut (c :: s') = (le, nl) ->
  segs (c :: s') [] = (firstn le (c :: s'), nl) :: segs (skipn le (c :: s')) [] /\
  (length (skipn le (c :: s')) <= length s')%nat.
Proof.
  unfold cut. intro E. rewrite segs_find_nl, skipn_length. cbn [rev app].
  destruct (find_nl (c :: s')) as [pos|]; injection E as <- <-.
  - split; [reflexivity|]. cbn [length]. lia.
  - change (S (length s')) with (length (c :: s')). rewrite firstn_all, skipn_all.
    split; [reflexivity|]. cbn [length]. lia.
Qed.

Lemma src_write_str_loop dbg fuel : forall s g a, (length s < fuel)%nat -> gw_inv g ->
  refines (g_IndentWriter_write_str_loop1 dbg fuel s g a) a (write_segs dbg (segs s []) (absw g))
          (fun g' => gw_le g g' /\ (s <> [] -> g_lst g' <> PartialIndent)).
Proof.
  induction fuel as [|f IH]; intros s g a Hl Hg; [lia|].
  destruct s as [|c s'].
  - apply refines_ret. split; [apply gw_le_refl|congruence].
  - destruct (cut (c :: s')) as [le nl] eqn:E.
    rewrite (loop_step dbg f c s' g a le nl E).
    destruct (segs_first c s' le nl E) as [Hs Hk]. cbn [length] in Hl.
    destruct (gstep_abs dbg g (firstn le (c :: s')) nl Hg) as [A1 A2].
    rewrite Hs. cbn [write_segs]. rewrite <- A1.
    apply refines_seq. intros g1 E1. destruct (A2 g1 E1) as (N1 & L1 & P1).
    assert (Hk' : (length (skipn le (c :: s')) < f)%nat) by lia.
    assert (Hg1 : gw_inv g1) by (intro Hp; destruct (N1 Hp)).
    apply (refines_weaken _ _ _ _ _ (IH (skipn le (c :: s')) g1 a Hk' Hg1)).
    intros g' [L2 _]. split; [exact (gw_le_trans _ _ _ (gw_le_intro _ _ N1 L1 P1) L2)|].
    intros _ Hp. exact (N1 (proj2 (proj2 L2) Hp)).
Qed.

Lemma src_write_str_le dbg g s a : gw_inv g ->
  refines (g_IndentWriter_write_str dbg g s a) a (write_str dbg s (absw g))
          (fun g' => gw_le g g' /\ (s <> [] -> g_lst g' <> PartialIndent)).
Proof. intro H. apply src_write_str_loop; [lia|exact H]. Qed.

Lemma src_write_str dbg g s a : gw_ok g ->
  exists r, g_IndentWriter_write_str dbg g s a = (a, r) /\
            map_res absw r = write_str dbg s (absw g) /\
            (forall g', r = Ok g' -> gw_ok g').
Proof.
  intro H. apply (refines_weaken _ _ _ _ _ (src_write_str_le dbg g s a (fun _ => H))).
  intros g' [L _]. exact (gw_le_ok _ _ L H).
Qed.

Lemma src_write_str_inv dbg g s a : gw_inv g ->
  exists r, g_IndentWriter_write_str dbg g s a = (a, r) /\
            map_res absw r = write_str dbg s (absw g) /\
            (forall g', r = Ok g' -> gw_inv g' /\ (s <> [] -> g_lst g' <> PartialIndent)).
Proof.
  intro H. apply (refines_weaken _ _ _ _ _ (src_write_str_le dbg g s a H)).
  intros g' [L N]. split; [exact (gw_le_inv _ _ L H)|exact N].
Qed.

(* a payload's fmt impl = the sequence of write_str calls it makes *)
Fixpoint g_write_chunks (dbg : bool) (chunks : list (list N)) (g : gwriter) : M gwriter :=
  match chunks with
  | [] => ret g
  | c :: t => g' <- g_IndentWriter_write_str dbg g c ;; g_write_chunks dbg t g'
  end.

Lemma src_write_chunks_le dbg chunks : forall g a, gw_inv g ->
  refines (g_write_chunks dbg chunks g a) a (write_chunks dbg chunks (absw g)) (gw_le g).
Proof.
  induction chunks as [|c t IH]; intros g a Hinv.
  - apply refines_ret, gw_le_refl.
  - cbn [g_write_chunks write_chunks].
    apply (refines_bind _ _ _ _ (write_chunks dbg t) _ _ (src_write_str_le dbg g c a Hinv)).
    intros g1 [L1 _]. apply (refines_weaken _ _ _ _ _ (IH g1 a (gw_le_inv _ _ L1 Hinv))).
    intros g'. apply gw_le_trans, L1.
Qed.

Lemma src_write_chunks dbg chunks : forall g a, gw_inv g ->
  exists r, g_write_chunks dbg chunks g a = (a, r) /\
            map_res absw r = write_chunks dbg chunks (absw g) /\
            (forall g', r = Ok g' -> gw_inv g').
Proof.
  intros g a H. apply (refines_weaken _ _ _ _ _ (src_write_chunks_le dbg chunks g a H)).
  intros g' L. exact (gw_le_inv _ _ L H).
Qed.

Lemma gw_inv_new : gw_inv (mkGW [] BeforeIndent [] 0).
Proof. intro H. discriminate. Qed.

Lemma open_item_lst g b : g_lst (g_IndentWriter_open_item g b) = BeforeIndent.
Proof. destruct g as [o l i p]. destruct l; reflexivity. Qed.

Lemma gw_inv_open_item g b : gw_inv (g_IndentWriter_open_item g b).
Proof. intros H. rewrite open_item_lst in H. discriminate. Qed.

Lemma close_item_lst g : g_lst (fst (g_IndentWriter_close_item g)) = g_lst g.
Proof. unfold g_IndentWriter_close_item. destruct (last_opt (g_ind g)); reflexivity. Qed.

Lemma gw_inv_close_item g : g_lst g <> PartialIndent -> gw_inv (fst (g_IndentWriter_close_item g)).
Proof. intros Hn H. rewrite close_item_lst in H. contradiction. Qed.

(* the driver of debug_pretty_print.rs over the regenerated IndentWriter *)
Fixpoint g_print_loop (dbg : bool) (rend : rendering) (mode : nat) (fuel : nat) (root : nid)
         (cur : option edge) (g : gwriter) : M gwriter :=
  match fuel with
  | O => diverge
  | S f =>
      r <- lift (trav_step root cur) ;;
      match r with
      | (None, _) => ret g
      | (Some (End_ _), cur') =>
          let '(g', ok) := g_IndentWriter_close_item g in
          if ok then g_print_loop dbg rend mode f root cur' g' else ret g
      | (Some (Start id), cur') =>
          n <- rdi id ;;
          let g1 := g_IndentWriter_open_item g (negb (is_some (next n))) in
          v <- lift (payload_of id) ;;
          g2 <- g_write_chunks dbg (rend v mode) g1 ;;
          g_print_loop dbg rend mode f root cur' g2
      end
  end.

Definition g_pretty_print (dbg : bool) (rend : rendering) (mode : nat) (x : nid) : M (list N) :=
  a <- get_arena ;;
  r <- lift (trav_step x (Some (Start x))) ;;
  v <- lift (payload_of x) ;;
  g1 <- g_write_chunks dbg (rend v mode) (mkGW [] BeforeIndent [] 0) ;;
  g <- g_print_loop dbg rend mode (trav_fuel a) x (snd r) g1 ;;
  ret (g_out g).

(* between two items the writer is never in PartialIndent, so [gw_inv] holds of it for free *)
Lemma src_print_loop dbg rend mode fuel : forall root cur g a, g_lst g <> PartialIndent ->
  refines (g_print_loop dbg rend mode fuel root cur g a) a (print_loop dbg rend mode fuel root cur (absw g) a)
          (fun _ => True).
Proof.
  induction fuel as [|f IH]; intros root cur g a Hg.
  - apply refines_diverge.
  - cbn [g_print_loop print_loop]. apply refines_lift. intros [[[id|id]|] cur'] _.
    + unfold bind at 1. unfold rbind at 1. unfold rdi, rd, rrdi, rrd.
      destruct (nth_error (nodes a) (idx id)) as [n|]; [|apply refines_panic].
      apply refines_lift. intros v _. rewrite <- src_open_item.
      apply (refines_bind _ _ _ _ (fun w2 => print_loop dbg rend mode f root cur' w2 a) _ _
               (src_write_chunks_le dbg (rend v mode) _ a (gw_inv_open_item g _))).
      intros g2 (_ & _ & L). apply IH. intro Hp. apply L in Hp. rewrite open_item_lst in Hp. discriminate.
    + rewrite src_close_item. pose proof (close_item_lst g) as Hc.
      destruct (g_IndentWriter_close_item g) as [g' ok]. cbn [fst] in Hc.
      destruct ok; [apply IH; rewrite Hc; exact Hg|]. apply refines_ret. exact I.
    + apply refines_ret. exact I.
Qed.

Theorem src_pretty_print dbg rend mode x a :
  g_pretty_print dbg rend mode x a = (a, pretty_print dbg rend mode x a).
Proof.
  unfold g_pretty_print, pretty_print.
  unfold bind at 1. unfold get_arena. unfold bind at 1. unfold rbind at 1. unfold lift at 1.
  destruct (trav_step x (Some (Start x)) a) as [[o cur']|c|]; [|reflexivity..].
  unfold bind at 1. unfold rbind at 1. unfold lift at 1.
  destruct (payload_of x a) as [v|c|]; [|reflexivity..].
  unfold bind at 1. unfold rbind at 1. unfold liftw.
  destruct (src_write_chunks_le dbg (rend v mode) (mkGW [] BeforeIndent [] 0) a gw_inv_new)
    as [r [Hr [Habs Hpost]]].
  rewrite Hr. change writer_new with (absw (mkGW [] BeforeIndent [] 0)). rewrite <- Habs.
  destruct r as [g1|c|]; cbn [map_res]; [|reflexivity..].
  unfold bind at 1. unfold rbind at 1. cbn [snd].
  destruct (src_print_loop dbg rend mode (trav_fuel a) x cur' g1 a) as [r [Hr2 [Habs2 _]]].
  { intro Hp. apply (Hpost g1 eq_refl) in Hp. discriminate. }
  rewrite Hr2, <- Habs2.
  destruct r as [g2|c|]; reflexivity.
Qed.
