(* C04 — remove splices the children into place; remove_subtree deletes exactly a subtree.
   In every reachable world: remove(x) takes the arena to one representing f_remove x F (x replaced
   by its children, in order, in whichever list — child list or top-level chain — held x) and
   removes exactly x; remove_subtree(x) removes exactly the pre-order D of x and takes the arena to
   f_remove_subtree x D F (every other list only loses x). *)
From IT Require Import Props.
From IT.proofs Require Import Reach ForestFacts.

Theorem C04_remove : forall ops x F, valid_hist false init ops -> let w := reach ops in
  Repr (ar w) F -> live (ar w) x ->
  let w' := fst (step false w (ORemove x)) in
  snd (step false w (ORemove x)) = OutUnit /\ Repr (ar w') (f_remove x F) /\ removed w' = removed w ++ [x].
Proof. intros ops x F H w HF Hx. exact (Assembly.step_outcome w (ORemove x) F HF (reach_alloc ops H) Hx). Qed.
Theorem C04_remove_subtree : forall ops x F, valid_hist false init ops -> let w := reach ops in
  Repr (ar w) F -> live (ar w) x ->
  let w' := fst (step false w (ORemoveSubtree x)) in
  let D := preorderF (length (nodes (ar w))) F x in
  snd (step false w (ORemoveSubtree x)) = OutUnit /\ Repr (ar w') (f_remove_subtree x D F) /\ removed w' = removed w ++ D.
Proof. intros ops x F H w HF Hx. exact (Assembly.step_outcome w (ORemoveSubtree x) F HF (reach_alloc ops H) Hx). Qed.

Theorem C04_remove_means : forall x F,
  kidsf (f_remove x F) x = [] /\
  (forall p, p <> x -> kidsf (f_remove x F) p = subst_id x (kidsf F x) (kidsf F p)) /\
  (forall S A B, ~ In x A -> ~ In x B -> subst_id x S (A ++ x :: B) = A ++ S ++ B).
Proof. intros; repeat split; [apply f_remove_self | intros; now apply f_remove_kids | intros; now apply subst_id_mid]. Qed.
Theorem C04_remove_subtree_means : forall x D F,
  (forall p, nid_in p D = true -> kidsf (f_remove_subtree x D F) p = []) /\
  (forall p, nid_in p D = false -> kidsf (f_remove_subtree x D F) p = remove_id x (kidsf F p)).
Proof. intros; split; intros; [now apply f_remove_subtree_gone | now apply f_remove_subtree_kids]. Qed.

Print Assumptions C04_remove.
Print Assumptions C04_remove_subtree.
Print Assumptions C04_remove_means.
Print Assumptions C04_remove_subtree_means.
