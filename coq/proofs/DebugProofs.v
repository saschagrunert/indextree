(* DebugProofs.v — the debug build (dbg = true: debug assertions, triangle checks, overflow checks)
   behaves exactly like the release build (dbg = false) on every valid call in a well-formed world:
   no debug assertion ever fires.

   A debug run is the release run with read-only checks in between, so it is enough that every check
   passes.  First the link primitives (connect_neighbors, detach_from_siblings, transplant,
   insert_last_unchecked) are run under dbg = true from local preconditions, the "triangle" facts [tri],
   [nrm], [ends_agree], [opar] about the few slots their checks read; then new_node (free_node and free_all
   are run for either build in ReprRemove).  The triangle facts hold in every arena that represents a forest
   ([Repr]), and the arenas between the stages of an operation are those of the release proofs (ReprInsert,
   ReprRemove, Assembly): detach, the move of a sibling list into a gap (all inserts, append_value, the splice
   of remove), remove, remove_subtree.  Last [debug_agrees] and its corollaries for histories. *)
From IT Require Import Props.
From IT.proofs Require Import Layer1 ReprBase ReprInsert.
From IT.proofs Require AllocProofs ReprRemove Assembly.
Require Import Lia.
Open Scope mon_scope.
Local Open Scope nat_scope.

Lemma dassert_ok : forall dbg b a, b = true -> dassert dbg b a = (a, Ok tt).
Proof. intros dbg b a ->. destruct dbg; reflexivity. Qed.

Lemma bind_chk : forall B (c : M unit) (k : unit -> M B) a, c a = (a, Ok tt) -> bind c k a = k tt a.
Proof. intros B c k a H. unfold bind. now rewrite H. Qed.

Lemma bind_dassert : forall dbg b B (k : unit -> M B) a, b = true -> bind (dassert dbg b) k a = k tt a.
Proof. intros dbg b B k a H. now apply bind_chk, dassert_ok. Qed.

Lemma when_dbg_agree : forall B (c : M unit) (k : unit -> M B) a, c a = (a, Ok tt) ->
  bind (when_dbg true c) k a = bind (when_dbg false c) k a.
Proof. intros B c k a H. cbn [when_dbg]. rewrite (bind_chk _ _ _ _ H). reflexivity. Qed.

(* a call that behaves alike in both builds, with the release result *)
Lemma run_both : forall A (m : bool -> M A) a r, m true a = m false a -> m false a = r -> forall dbg, m dbg a = r.
Proof. intros A m a r H E [|]; congruence. Qed.

(* conversely, an operation is run once for an arbitrary build *)
Lemma run_alike : forall A (m : bool -> A), (exists r, forall dbg, m dbg = r) -> m true = m false.
Proof. intros A m [r H]. now rewrite !H. Qed.

(* what the checks test: [tri] assert_triangle_nodes, [nrm] a node in range and not removed, [ends_agree] a
   parent with a first child exactly when it has a last child, [opar] the parent field of an optional node *)
Definition tri (a : arena) (par pv nx : option nid) : Prop :=
  match pv with Some p => inr a p /\ parent (nd a p) = par /\ next (nd a p) = nx | None => True end /\
  match nx with Some x => inr a x /\ parent (nd a x) = par /\ prev (nd a x) = pv | None => True end.

Definition nrm (a : arena) (o : option nid) : Prop :=
  match o with Some x => inr a x /\ (0 <= stamp (nd a x))%Z | None => True end.
Definition ends_agree (a : arena) (par : option nid) : Prop :=
  match par with Some p => is_some (first (nd a p)) = is_some (last (nd a p)) | None => True end.
Definition opar (a : arena) (o par : option nid) : Prop :=
  match o with Some x => parent (nd a x) = par | None => True end.

Lemma nrm_oinr : forall a o, nrm a o -> oinr a o.
Proof. intros a [x|] H; cbn in *; tauto. Qed.

Lemma tri_opar_pv : forall a par pv nx, tri a par pv nx -> opar a pv par.
Proof. intros a par [p|] nx [H _]; cbn; auto. tauto. Qed.
Lemma tri_opar_nx : forall a par pv nx, tri a par pv nx -> opar a nx par.
Proof. intros a par pv [x|] [_ H]; cbn; auto. tauto. Qed.

Lemma nrm_amap : forall F a o, links_only F -> (nrm (amap F a) o <-> nrm a o).
Proof.
  intros F a [x|] H; cbn [nrm]; [|tauto]. rewrite inr_amap, stamp_nd_amap by auto. tauto.
Qed.

Lemma ends_agree_amap : forall F a par,
  (forall j n, first (F j n) = first n) -> (forall j n, last (F j n) = last n) ->
  (ends_agree (amap F a) par <-> ends_agree a par).
Proof.
  intros F a [p|] H1 H2; cbn [ends_agree]; [|tauto]. rewrite first_nd_keep, last_nd_keep by auto. tauto.
Qed.

Lemma opar_amap : forall F a o par, (forall j n, parent (F j n) = parent n) ->
  (opar (amap F a) o par <-> opar a o par).
Proof. intros F a [x|] par H; cbn [opar]; [|tauto]. rewrite parent_nd_keep by auto. tauto. Qed.

(* a triangle under par reads inr, parent, prev and next of slots whose parent is par, nothing else *)
Lemma tri_ext : forall a a' par pv nx,
  (forall y, inr a y -> parent (nd a y) = par ->
     inr a' y /\ parent (nd a' y) = par /\ prev (nd a' y) = prev (nd a y) /\ next (nd a' y) = next (nd a y)) ->
  tri a par pv nx -> tri a' par pv nx.
Proof.
  intros a a' par pv nx H [H1 H2]. split.
  - destruct pv as [p|]; auto. destruct H1 as (I & P & N). destruct (H p I P) as (I' & P' & _ & N'). rewrite N'. auto.
  - destruct nx as [x|]; auto. destruct H2 as (I & P & V). destruct (H x I P) as (I' & P' & V' & _). rewrite V'. auto.
Qed.

Lemma atn_ok : forall a par pv nx, tri a par pv nx -> assert_triangle_nodes par pv nx a = (a, Ok tt).
Proof.
  intros a par pv nx [H1 H2]. unfold assert_triangle_nodes.
  rewrite bind_chk.
  - destruct nx as [x|]; [|reflexivity]. destruct H2 as (I & P & V).
    rewrite bind_rdi by auto. rewrite P, V. unfold assert_eq_onid. rewrite !onid_eqb_refl. reflexivity.
  - destruct pv as [p|]; [|reflexivity]. destruct H1 as (I & P & N).
    rewrite bind_rdi by auto. rewrite P, N. unfold assert_eq_onid. rewrite !onid_eqb_refl. reflexivity.
Qed.

Lemma dtriangle_ok : forall dbg a par pv nx, tri a par pv nx -> dtriangle dbg par pv nx a = (a, Ok tt).
Proof. intros [|] a par pv nx H; cbn [dtriangle when_dbg]; [now apply atn_ok | reflexivity]. Qed.

Lemma dpea_ok : forall a par, oinr a par -> ends_agree a par -> dparent_ends_agree par a = (a, Ok tt).
Proof.
  intros a [p|] I H; cbn [oinr ends_agree dparent_ends_agree] in *; [|reflexivity].
  now rewrite bind_rdi, H, Bool.eqb_reflx by exact I.
Qed.

Lemma dnr_ok : forall a o, nrm a o -> dnot_removed o a = (a, Ok tt).
Proof.
  intros a [x|] H; cbn [nrm dnot_removed] in *; [|reflexivity]. destruct H as [I S]. rewrite bind_rdi by exact I.
  unfold node_is_removed, st_is_removed. destruct (Z.ltb_spec (stamp (nd a x)) 0); [lia|reflexivity].
Qed.

Lemma dopar_ok : forall a o par, oinr a o -> opar a o par ->
  match o with
  | Some p => n <- rdi p ;; dassert true (onid_eqb (parent n) par)
  | None => ret tt
  end a = (a, Ok tt).
Proof.
  intros a [p|] par I H; cbn [opar oinr] in *; [|reflexivity].
  rewrite bind_rdi by exact I. apply dassert_ok. rewrite H. apply onid_eqb_refl.
Qed.

Lemma cnF_keep_parent : forall a par pv nx j n, parent (cnF a par pv nx j n) = parent n.
Proof.
  intros. change (getf Fparent (cnF a par pv nx j n) = getf Fparent n). rewrite getf_cnF.
  cbn [fld_eqb]. now rewrite !andb_false_r.
Qed.

Lemma cn_ends_agree : forall a par pv nx, is_some (cn_first a par pv nx) = is_some (cn_last a par pv nx).
Proof.
  intros a par pv nx. unfold cn_first, cn_last.
  destruct pv, nx, par as [q|]; try reflexivity;
    destruct (first (nd a q)), (last (nd a q)); reflexivity.
Qed.

(* connect_neighbors leaves the two ends of every parent agreeing: those of par are set to values that
   agree, the others are not touched *)
Lemma ends_agree_cn : forall a par pv nx q, oinr a q -> ends_agree a q ->
  ends_agree (amap (cnF a par pv nx) a) q.
Proof.
  intros a par pv nx [q|] I H; cbn [ends_agree oinr] in *; [|exact Logic.I].
  change (first ?n) with (getf Ffirst n). change (last ?n) with (getf Flast n).
  rewrite !getf_nd_amap, !getf_cnF by exact I. cbn [fld_eqb getf].
  rewrite !andb_false_r, !andb_true_r. destruct (oat par (idx q)); [apply cn_ends_agree | exact H].
Qed.

Lemma tri_cn : forall a par pv nx, oinr a pv -> oinr a nx -> opar a pv par -> opar a nx par ->
  tri (amap (cnF a par pv nx) a) par pv nx.
Proof.
  intros a par pv nx Iv In_ Ov On. split.
  - destruct pv as [p|]; auto. cbn in Iv, Ov. split; [now apply inr_amap|]. split.
    + rewrite parent_nd_keep by (intros; apply cnF_keep_parent). exact Ov.
    + change (getf Fnext (nd (amap (cnF a par (Some p) nx) a) p) = nx).
      rewrite getf_nd_amap by auto. rewrite getf_cnF. cbn [fld_eqb oat].
      rewrite Nat.eqb_refl, !andb_false_r. reflexivity.
  - destruct nx as [x|]; auto. cbn in In_, On. split; [now apply inr_amap|]. split.
    + rewrite parent_nd_keep by (intros; apply cnF_keep_parent). exact On.
    + change (getf Fprev (nd (amap (cnF a par pv (Some x)) a) x) = pv).
      rewrite getf_nd_amap by auto. rewrite getf_cnF. cbn [fld_eqb oat].
      rewrite Nat.eqb_refl, !andb_false_r. reflexivity.
Qed.

(* one neighbour gets its link; what is returned becomes an end of the parent *)
Lemma bind_link : forall B a o g v d (k : option nid -> M B), oinr a o ->
  bind (match o with Some p => updi p (setf g v) ;;; ret (or_else d (Some p)) | None => ret v end) k a =
  k (match o with Some p => or_else d (Some p) | None => v end) (amap (ofset o g v) a).
Proof.
  intros B a [p|] g v d k I; cbn [oinr ofset] in *.
  - now rewrite bind_assoc, bind_updi, bind_ret by exact I.
  - now rewrite bind_ret, amap_id.
Qed.

Lemma bind_set_ends : forall B dbg a par cf cl (k : unit -> M B), oinr a par -> is_some cf = is_some cl ->
  bind (match par with
        | Some p => dassert dbg (Bool.eqb (is_some cf) (is_some cl)) ;;;
                    updi p (fun n => setf Flast cl (setf Ffirst cf n))
        | None => ret tt
        end) k a = k tt (amap (ofset par Flast cl ∘∘ ofset par Ffirst cf) a).
Proof.
  intros B dbg a [p|] cf cl k I E; cbn [oinr ofset] in *.
  - now rewrite bind_assoc, bind_dassert, bind_updi2 by (exact I || (rewrite E; apply Bool.eqb_reflx)).
  - now rewrite bind_ret, amap_id' by reflexivity.
Qed.

(* connect_neighbors stage by stage: entry checks, the parent's ends are read, the neighbours are linked to
   each other, the parent's ends are written, exit check *)
Lemma cn_dbg : forall a par pv nx, nrm a par -> nrm a pv -> nrm a nx -> ends_agree a par ->
  opar a pv par -> opar a nx par ->
  connect_neighbors true par pv nx a = (amap (cnF a par pv nx) a, Ok tt).
Proof.
  intros a par pv nx Np Nv Nn EA Ov On.
  pose proof (nrm_oinr _ _ Np) as Ip. pose proof (nrm_oinr _ _ Nv) as Iv. pose proof (nrm_oinr _ _ Nn) as In_.
  unfold connect_neighbors. cbn [when_dbg].
  rewrite bind_chk.
  2:{ rewrite bind_chk by (now apply dpea_ok). rewrite !bind_chk by (now apply dnr_ok). now apply dnr_ok. }
  rewrite (bind_ok _ _ _ _ _ a (match par with Some q => first (nd a q) | None => None end,
                                match par with Some q => last (nd a q) | None => None end)).
  2:{ destruct par as [p|]; [rewrite bind_rdi by exact Ip|]; reflexivity. }
  cbv beta iota. rewrite !bind_link by (now rewrite ?oinr_amap).
  fold (cn_first a par pv nx) (cn_last a par pv nx).
  rewrite bind_set_ends by (rewrite ?oinr_amap; auto using cn_ends_agree).
  rewrite !amap_amap. apply atn_ok, tri_cn; assumption.
Qed.

Lemma dfsF_cn : forall a f l,
  let a' := amap (fset l Fnext None) (amap (fset f Fprev None) a) in
  amap (cnF a' (parent (nd a f)) (prev (nd a f)) (next (nd a l))) a' = amap (dfsF a f l) a.
Proof. intros. unfold a', dfsF. rewrite !cnF_amap_keep by fset_keep_tac. now rewrite !amap_amap. Qed.

Lemma ends_agree_dfs : forall a f l q, oinr a q -> ends_agree a q -> ends_agree (amap (dfsF a f l) a) q.
Proof.
  intros a f l q I H. rewrite <- dfsF_cn. apply ends_agree_cn.
  - now rewrite !oinr_amap.
  - now rewrite !ends_agree_amap by fset_keep_tac.
Qed.

(* The run f .. l is given by the triangles at its two ends.  The two updates before connect_neighbors touch none
   of the fields its checks read; its own triangle is the one checked again afterwards.  What the other exit
   checks see (the outer links of f and l, the ends of the old parent q) is left to the caller. *)
Lemma dfs_dbg : forall a f l par pv nx, tri a par pv (Some f) -> tri a par (Some l) nx ->
  nrm a par -> nrm a pv -> nrm a nx -> ends_agree a par ->
  prev (nd (amap (dfsF a f l) a) f) = None -> next (nd (amap (dfsF a f l) a) l) = None ->
  (forall q, par = Some q ->
     tri (amap (dfsF a f l) a) par None (first (nd (amap (dfsF a f l) a) q)) /\
     tri (amap (dfsF a f l) a) par (last (nd (amap (dfsF a f l) a) q)) None) ->
  detach_from_siblings true f l a = (amap (dfsF a f l) a, Ok tt).
Proof.
  intros a f l par pv nx Tf Tl Np Nv Nn EA Pf Nl HP.
  pose proof (tri_opar_pv _ _ _ _ Tf) as Ov. pose proof (tri_opar_nx _ _ _ _ Tl) as On.
  destruct Tf as [_ (If & Ep & Ev)], Tl as [(Il & _ & En) _].
  unfold detach_from_siblings. repeat mstep1.
  rewrite (next_nd_keep (fset f Fprev None)) by fset_keep_tac. rewrite Ep, Ev, En.
  set (a' := amap (fset l Fnext None) (amap (fset f Fprev None) a)).
  assert (N' : forall o, nrm a o -> nrm a' o) by (intros; unfold a'; now rewrite !nrm_amap by apply links_only_fset).
  assert (O' : forall o, opar a o par -> opar a' o par) by (intros; unfold a'; now rewrite !opar_amap by fset_keep_tac).
  assert (EA' : ends_agree a' par) by (unfold a'; now rewrite !ends_agree_amap by fset_keep_tac).
  pose proof (tri_cn a' par pv nx (nrm_oinr _ _ (N' _ Nv)) (nrm_oinr _ _ (N' _ Nn)) (O' _ Ov) (O' _ On)) as T.
  pose proof (ends_agree_cn a' par pv nx par (nrm_oinr _ _ (N' _ Np)) EA') as EA2.
  rewrite (bind_ok _ _ _ _ _ _ _ (cn_dbg a' par pv nx (N' _ Np) (N' _ Nv) (N' _ Nn) EA' (O' _ Ov) (O' _ On))).
  assert (E2 : amap (cnF a' par pv nx) a' = amap (dfsF a f l) a) by (rewrite <- Ep, <- Ev, <- En; apply dfsF_cn).
  rewrite E2 in *. clear E2 a' N' O' EA'.
  cbn [when_dbg]. repeat mstep1. rewrite Pf, bind_dassert by reflexivity.
  repeat mstep1. rewrite Nl, bind_dassert by reflexivity.
  rewrite bind_chk by (now apply atn_ok).
  destruct par as [q|]; [|reflexivity]. destruct (HP q eq_refl) as [T1 T2].
  assert (Iq : inr a q) by apply Np.
  repeat mstep1. cbn [ends_agree] in EA2. rewrite EA2, Bool.eqb_reflx, bind_dassert by reflexivity.
  rewrite bind_chk by (now apply atn_ok). now apply atn_ok.
Qed.

(* what transplant checks on exit *)
Definition tp_post (a3 : arena) (f l : nid) (par pv nx : option nid) : Prop :=
  tri a3 par pv (Some f) /\ tri a3 par (Some l) nx /\
  match par with
  | Some p => is_some (first (nd a3 p)) && is_some (last (nd a3 p)) = true /\
              tri a3 par None (first (nd a3 p)) /\ tri a3 par (last (nd a3 p)) None
  | None => True
  end.

Lemma parent_reparent : forall a S np x, inr a x ->
  parent (nd (amap (reparentF S np) a) x) =
  if existsb (Nat.eqb (idx x)) (map idx S) then np else parent (nd a x).
Proof.
  intros a S np x I. change (parent ?n) with (getf Fparent n) at 1.
  rewrite getf_nd_amap, getf_reparentF by exact I. cbn [fld_eqb]. now rewrite andb_true_r.
Qed.

Lemma opar_reparent : forall a S o par, oinr a o -> opar a o par -> opar (amap (reparentF S par) a) o par.
Proof.
  intros a S [x|] par I H; cbn [opar oinr] in *; [|exact Logic.I].
  rewrite parent_reparent by exact I. now destruct (existsb _ _).
Qed.

Lemma opar_reparent_in : forall a S x par, inr a x -> In x S -> opar (amap (reparentF S par) a) (Some x) par.
Proof.
  intros a S x par I H. cbn [opar]. rewrite parent_reparent by exact I.
  replace (existsb _ _) with true; [reflexivity|]. symmetry. apply existsb_exists.
  exists (idx x). split; [now apply in_map | apply Nat.eqb_refl].
Qed.

Lemma transplant_dbg : forall a S f l par pv nx,
  next_path a (Some f) S -> Forall (inr a) S -> length S <= chain_fuel a ->
  (forall s, In s S -> onid_eqb (Some s) par = false) ->
  In l S ->
  nrm a par -> nrm a pv -> nrm a nx -> nrm a (Some f) -> nrm a (Some l) ->
  tri a par pv nx -> ends_agree a par ->
  tp_post (amap (transplantF a S f l par pv nx) a) f l par pv nx ->
  transplant true f l par pv nx a = (amap (transplantF a S f l par pv nx) a, Ok COk).
Proof.
  intros a S f l par pv nx HP HI HL HN Hl Np Nv Nn Nf Nl T EA (T1 & T2 & T3).
  assert (Hf : In f S). { apply hd_error_In. symmetry. exact (next_path_hd _ _ _ HP). }
  pose proof (tri_opar_pv _ _ _ _ T) as Ov. pose proof (tri_opar_nx _ _ _ _ T) as On.
  pose proof (nrm_oinr _ _ Np) as Ip. pose proof (nrm_oinr _ _ Nv) as Iv. pose proof (nrm_oinr _ _ Nn) as In_.
  unfold transplant. cbn [when_dbg].
  rewrite bind_chk.
  2:{ rewrite !bind_chk by (now apply dopar_ok). rewrite bind_chk by (now apply atn_ok). now apply dpea_ok. }
  erewrite bind_ok by (eapply rewrite_parents_ok; eauto).
  cbv beta iota.
  (* the arena after rewrite_parents and the one after the first connect_neighbors *)
  set (a1 := amap (reparentF S par) a).
  assert (L1 : links_only (reparentF S par)) by apply links_only_reparentF.
  assert (EA1 : ends_agree a1 par)
    by (apply ends_agree_amap; auto using reparentF_keep_first, reparentF_keep_last).
  erewrite bind_ok.
  2:{ apply cn_dbg; unfold a1; rewrite ?nrm_amap by exact L1; auto.
      - now apply opar_reparent.
      - apply opar_reparent_in; [apply Nf | exact Hf]. }
  set (a2 := amap (cnF a1 par pv (Some f)) a1).
  assert (L2 : links_only (cnF a1 par pv (Some f))) by apply links_only_cnF.
  erewrite bind_ok.
  2:{ apply cn_dbg; unfold a2, a1; rewrite ?nrm_amap by assumption; auto.
      - apply ends_agree_cn; [now apply oinr_amap | exact EA1].
      - apply opar_amap; [intros; apply cnF_keep_parent|]. apply opar_reparent_in; [apply Nl | exact Hl].
      - apply opar_amap; [intros; apply cnF_keep_parent|]. now apply opar_reparent. }
  assert (EQ : amap (cnF a2 par (Some l) nx) a2 = amap (transplantF a S f l par pv nx) a).
  { unfold transplantF, a2, a1.
    rewrite (cnF_amap_keep (reparentF S par) a) by auto using reparentF_keep_first, reparentF_keep_last.
    now rewrite !amap_amap. }
  rewrite EQ. clear EQ.
  rewrite bind_chk; [reflexivity|].
  rewrite !bind_chk by (now apply atn_ok).
  destruct par as [p|]; [|reflexivity]. destruct T3 as (B & T3 & T4).
  rewrite bind_rdi by (apply inr_amap, Ip). rewrite bind_dassert by exact B.
  rewrite bind_chk by (now apply atn_ok). now apply atn_ok.
Qed.

Lemma ilu_dbg : forall a c p, inr a c -> inr a p -> next (nd a c) = None -> nid_eqb c p = false ->
  nrm a (Some p) -> nrm a (last (nd a p)) -> nrm a (Some c) ->
  opar a (last (nd a p)) (Some p) -> tri a (Some p) (last (nd a p)) None -> ends_agree a (Some p) ->
  tp_post (amap (iluF a c p) a) c c (Some p) (last (nd a p)) None ->
  insert_last_unchecked true c p a = (amap (iluF a c p) a, Ok tt).
Proof.
  intros a c p Ic Ip Hn E Np Nv Nc Ov T EA POST. unfold insert_last_unchecked, iluF in *.
  rewrite bind_rdi by auto.
  erewrite bind_ok.
  2:{ apply (transplant_dbg a [c]); auto.
      - cbn [next_path]. auto.
      - unfold chain_fuel. cbn. lia.
      - intros s [<-|[]]. exact E.
      - now left.
      - exact Logic.I. }
  cbn [expect]. rewrite bind_ret.
  destruct POST as (T1 & _).
  now apply dtriangle_ok.
Qed.

Lemma node_reuse_dbg : forall a i n v, nth_error (nodes a) i = Some n ->
  (exists nf, data n = NextFree nf) -> (i16_min < stamp n < 0)%Z ->
  node_reuse true i v a = node_reuse false i v a.
Proof.
  intros a i n v Hn [nf Hd] Hs. unfold node_reuse, bind, rd, dassert. rewrite Hn, Hd.
  unfold node_is_removed, st_is_removed. rewrite (proj2 (Z.ltb_lt _ _)) by lia.
  now rewrite !AllocProofs.reuse_removed.
Qed.

Lemma new_node_dbg : forall w v, AllocOK w -> new_node true v (ar w) = new_node false v (ar w).
Proof.
  intros w v OK. destruct (al_free _ OK) as (FL & Hseg & Hlast & HND & Hreus).
  unfold new_node. destruct FL as [|i FL'].
  - cbn in Hseg. rewrite !(bind_ok _ _ _ _ _ _ _ (AllocProofs.pop_front_none _ Hseg)). reflexivity.
  - cbn [flseg] in Hseg. destruct Hseg as (Hff & n & nf & Hn & Hd & Hseg).
    assert (Hs : (i16_min < stamp n < 0)%Z).
    { destruct (proj1 (Hreus i) (or_introl eq_refl)) as (n0 & Hn0 & Hs). congruence. }
    rewrite !(bind_ok _ _ _ _ _ _ _ (AllocProofs.pop_front_some _ _ _ _ Hff Hn Hd)).
    cbv beta iota. unfold bind.
    rewrite (node_reuse_dbg _ i n v); eauto.
Qed.

Section ReprTri.
Variables (a : arena) (F : forest).
Hypothesis R : Repr a F.

Lemma repr_tri_adj : forall o A B, sibs F o (A ++ B) -> tri a o (last_error A) (hd_error B).
Proof.
  intros o A B HS. split.
  - destruct (last_error A) as [p|] eqn:E; [|exact I].
    apply last_error_split in E. destruct E as [A' ->]. rewrite <- app_assoc in HS.
    split; [apply live_inr, (sibs_live a F R o _ p HS), in_elt|].
    split; [exact (links_of a F R o A' p B Fparent HS) | exact (links_of a F R o A' p B Fnext HS)].
  - destruct B as [|x B]; [exact I|].
    split; [apply live_inr, (sibs_live a F R o _ x HS), in_elt|].
    split; [exact (links_of a F R o A x B Fparent HS) | exact (links_of a F R o A x B Fprev HS)].
Qed.

Lemma repr_tri_mid : forall o A x B, sibs F o (A ++ x :: B) ->
  tri a o (last_error A) (Some x) /\ tri a o (Some x) (hd_error B).
Proof.
  intros o A x B HS. split; [apply (repr_tri_adj o A (x :: B) HS)|].
  rewrite <- (last_error_snoc A x). apply repr_tri_adj. now rewrite <- app_assoc.
Qed.

Lemma repr_tri_ends : forall x, live a x ->
  tri a (Some x) None (first (nd a x)) /\ tri a (Some x) (last (nd a x)) None.
Proof.
  intros x L. destruct (ends_of a F R x L) as [-> ->]. split.
  - apply (repr_tri_adj (Some x) [] (kidsf F x)). reflexivity.
  - apply (repr_tri_adj (Some x) (kidsf F x) []). cbn. now rewrite app_nil_r.
Qed.

Lemma repr_ends_agree : forall o, (forall p, o = Some p -> live a p) -> ends_agree a o.
Proof.
  intros [p|] H; cbn; auto. destruct (ends_of a F R p (H p eq_refl)) as [-> ->].
  destruct (kidsf F p); reflexivity.
Qed.

Lemma repr_nrm : forall o, (forall p, o = Some p -> live a p) -> nrm a o.
Proof.
  intros [p|] H; cbn; auto. pose proof (H p eq_refl) as L. split; [now apply live_inr|].
  destruct (live_stamp _ _ L). lia.
Qed.

End ReprTri.

(* a triangle under a parent q does not see that the parent field of slot x is cleared: its corners have
   parent q, so none of them is stored in slot x *)
Lemma tri_unparent : forall a x q pv nx,
  tri (amap (fset x Fparent None) a) (Some q) pv nx -> tri a (Some q) pv nx.
Proof.
  intros a x q pv nx. apply tri_ext. intros y I P. apply inr_amap in I. rewrite nd_amap in P |- * by exact I.
  unfold fset in *. destruct (Nat.eqb (idx y) (idx x)); [discriminate P | auto].
Qed.

Lemma lone_top_detached : forall a F x, Repr a F -> In [x] (tops F) -> node_is_detached (nd a x) = true.
Proof.
  intros a F x R H. unfold node_is_detached.
  assert (HS : sibs F None ([] ++ x :: [])) by exact H.
  destruct (sibs_mid a F R _ _ _ _ HS) as [-> ->].
  rewrite (top_parent a F R [x] x H) by (now left). reflexivity.
Qed.

Section DetachD.
Variables (a : arena) (F : forest) (x : nid) (o : option nid) (A B : list nid).
Hypothesis R : Repr a F.
Hypothesis Lx : live a x.
Hypothesis HS : sibs F o (A ++ x :: B).

(* The triangles of the old parent are checked when x still has its parent field; they are read off the arena
   after the whole detach, which represents a forest again. *)
Lemma dtd_exec : detach true x a = (amap (detachF a x) a, Ok tt).
Proof.
  pose proof (dt_repr a F x o A B R Lx HS) as R'.
  pose proof (live_inr _ _ Lx) as Ix.
  assert (EA : amap (detachF a x) a = amap (fset x Fparent None) (amap (dfsF a x x) a)).
  { unfold detachF. now rewrite amap_amap. }
  assert (HT : sibs (f_detach x F) None ([] ++ [x])) by (now left).
  pose proof (links_of _ _ R' None [] x [] Fprev HT) as Px. pose proof (links_of _ _ R' None [] x [] Fnext HT) as Nx.
  cbn [getf last_error hd_error] in Px, Nx. rewrite EA in Px, Nx.
  rewrite prev_nd_keep in Px by fset_keep_tac. rewrite next_nd_keep in Nx by fset_keep_tac.
  unfold detach.
  erewrite bind_ok.
  2:{ apply (dfs_dbg a x x o (last_error A) (hd_error B)); auto; try apply (repr_tri_mid a F R o A x B HS).
      - apply repr_nrm, (dt_live_o a F x o A B R HS).
      - apply repr_nrm, (dt_live_pv a F x o A B R HS).
      - apply repr_nrm, (dt_live_nx a F x o A B R HS).
      - apply (repr_ends_agree a F R), (dt_live_o a F x o A B R HS).
      - intros q ->.
        assert (Lq : live (amap (detachF a x) a) q).
        { apply live_amap; [apply links_only_detachF | now apply (dt_live_o a F x (Some q) A B R HS)]. }
        rewrite <- (first_nd_keep (fset x Fparent None)), <- (last_nd_keep (fset x Fparent None)) by fset_keep_tac.
        rewrite <- EA. split; apply (tri_unparent _ x); rewrite <- EA; apply (repr_tri_ends _ _ R' q Lq). }
  erewrite bind_ok.
  2:{ apply (rewrite_parents_ok [x]).
      - cbn [next_path]. split; auto.
      - constructor; [now apply inr_amap | constructor].
      - unfold chain_fuel. cbn. lia.
      - reflexivity. }
  cbn [expect]. rewrite bind_ret, reparentF_single, <- EA.
  rewrite bind_rdi by (now apply inr_amap).
  apply dassert_ok. apply (lone_top_detached _ _ x R'). exact HT.
Qed.
End DetachD.

Theorem detach_agree : forall a F x, Repr a F -> live a x -> detach true x a = detach false x a.
Proof.
  intros a F x R Lx. destruct (sibs_split a F R x Lx) as (A & B & HS).
  rewrite (dtd_exec a F x _ A B R Lx HS). symmetry. apply (dt_exec a F x _ A B R Lx HS).
Qed.

Section MoveD.
Variables (a : arena) (F : forest) (src : option nid) (f : nid) (S' : list nid).
Variables (par : option nid) (A B : list nid) (F2 : forest).
Let S := f :: S'.
Let l := List.last S' f.
Let pv := last_error A.
Let nx := hd_error B.
Hypothesis R : Repr a F.
Hypothesis HS : sibs F src S.
Hypothesis OK : move_ok a F src S par A B F2.

Let a1 := amap (dfsF a f l) a.
Let a2 := amap (transplantF a1 S f l par pv nx) a1.

Let HG := proj1 OK.
Let Lsrc := mv_live_src a F src f S' R HS.
Let LS := mv_live_S a F src f S' R HS.
Let Lpar := mv_live_par a F f S' par A B HG.
Let Lpv := mv_live_pv a F f S' par A B R HG.
Let Lnx := mv_live_nx a F f S' par A B R HG.
Let R2 : Repr a2 F2 := proj1 (proj2 (move_refines a F src f S' par A B F2 R HS OK)).

Lemma mvd_tri : tri a par pv nx.
Proof.
  destruct (mv_gap a F f S' par A B HG) as [E|G].
  - apply app_eq_nil in E. destruct E as [EA EB]. unfold pv, nx. rewrite EA, EB. split; exact I.
  - apply (repr_tri_adj a F R par A B G).
Qed.

Lemma mvd_dfs : detach_from_siblings true f l a = (a1, Ok tt).
Proof.
  apply (dfs_dbg a f l src None None); try exact I.
  - apply (repr_tri_adj a F R src [] S HS).
  - apply (repr_tri_adj a F R src S []). cbn. now rewrite app_nil_r.
  - now apply repr_nrm.
  - now apply (repr_ends_agree a F R).
  - etransitivity; [apply (mv_a1_links a F src f S' R HS), live_inr, LS, mv_f_in|].
    apply (mv_f_fields a F src f S' R HS).
  - etransitivity; [apply (mv_a1_links a F src f S' R HS), live_inr, LS, mv_l_in|].
    apply (mv_l_next a F src f S' R HS).
  - (* the whole list goes: the old parent is left without children *)
    intros q Eq. fold a1.
    assert (Iq : inr a q) by (apply live_inr, Lsrc, Eq).
    pose proof (mv_a1_field a F src f S' R HS Ffirst q Iq) as H1.
    pose proof (mv_a1_field a F src f S' R HS Flast q Iq) as H2.
    cbn [fld_eqb orb getf] in H1, H2. rewrite Eq in H1, H2. cbn [oat] in H1, H2.
    rewrite Nat.eqb_refl in H1, H2. cbn [andb] in H1, H2. fold l a1 in H1, H2.
    rewrite H1, H2. split; split; exact I.
Qed.

Lemma mvd_post : tp_post a2 f l par pv nx.
Proof.
  pose proof (mv_sibs2 a F src f S' par A B F2 HS HG (proj1 (proj2 OK)) (proj1 (proj2 (proj2 OK)))
                (proj2 (proj2 (proj2 OK)))) as S2.
  split; [|split].
  - apply (repr_tri_adj a2 F2 R2 par A (S ++ B) S2).
  - assert (S2' : sibs F2 par ((A ++ S) ++ B)) by (now rewrite <- app_assoc).
    pose proof (repr_tri_adj a2 F2 R2 par _ _ S2') as T. now rewrite last_error_app in T.
  - pose proof Lpar as LP. destruct par as [p|]; auto.
    assert (Lp : live a2 p) by (apply (mv_live2 a f S' (Some p) A B), LP; reflexivity).
    destruct (ends_of a2 F2 R2 p Lp) as [F1 F2']. cbn in S2. rewrite S2 in F1, F2'.
    split; [|apply (repr_tri_ends a2 F2 R2 p Lp)].
    rewrite F1, F2'. rewrite !last_error_app. unfold S. destruct A, (last_error B); reflexivity.
Qed.

Lemma mvd_transplant : transplant true f l par pv nx a1 = (a2, Ok COk).
Proof.
  assert (N1 : forall o, (forall p, o = Some p -> live a p) -> nrm a1 o).
  { intros o H. apply nrm_amap; [apply links_only_dfsF | now apply repr_nrm]. }
  destruct (mv_run a F src f S' par A B R HS HG) as (NP & IS & LN & NS).
  apply transplant_dbg; try assumption.
  - apply mv_l_in.
  - exact (N1 _ Lpar).
  - exact (N1 _ Lpv).
  - exact (N1 _ Lnx).
  - apply N1. intros p [= <-]. apply LS, mv_f_in.
  - apply N1. intros p [= <-]. apply LS, mv_l_in.
  - apply (tri_ext a); [|exact mvd_tri]. intros y I P.
    destruct (mv_a1_links a F src f S' R HS y I) as (E1 & E23).
    split; [now apply inr_amap|]. split; [exact (eq_trans E1 P) | exact E23].
  - apply ends_agree_dfs; [apply (mv_oinr a), Lpar | now apply (repr_ends_agree a F R)].
  - apply mvd_post.
Qed.

End MoveD.

(* [ReprInsert.move_refines] for both builds, with the triangles the callers' own checks ask for *)
Theorem move_both : forall a F src f S' par A B F2,
  Repr a F -> sibs F src (f :: S') -> move_ok a F src (f :: S') par A B F2 ->
  let l := List.last S' f in
  let a1 := amap (dfsF a f l) a in
  let a2 := amap (transplantF a1 (f :: S') f l par (last_error A) (hd_error B)) a1 in
  (forall dbg, detach_from_siblings dbg f l a = (a1, Ok tt)) /\
  (forall dbg, transplant dbg f l par (last_error A) (hd_error B) a1 = (a2, Ok COk)) /\
  tri a par (last_error A) (hd_error B) /\ tp_post a2 f l par (last_error A) (hd_error B).
Proof.
  intros a F src f S' par A B F2 R HS OK. cbv zeta. split; [|split; [|split]].
  - intros [|]; [eapply mvd_dfs | eapply mv_dfs]; eauto.
  - intros [|]; [eapply mvd_transplant | eapply mv_transplant]; eauto. apply OK.
  - eapply mvd_tri; eauto.
  - eapply mvd_post; eauto.
Qed.

(* insert_with_neighbors: the entry check, the three loop checks, the move, two exit checks *)
Lemma iwn_exec : forall dbg c par pv nx a a1 a2, tri a par pv nx ->
  onid_eqb pv (Some c) = false -> onid_eqb nx (Some c) = false -> onid_eqb par (Some c) = false ->
  detach_from_siblings dbg c c a = (a1, Ok tt) -> transplant dbg c c par pv nx a1 = (a2, Ok COk) ->
  tri a2 par pv (Some c) -> tri a2 par (Some c) nx ->
  insert_with_neighbors dbg c par pv nx a = (a2, Ok COk).
Proof.
  intros dbg c par pv nx a a1 a2 T E1 E2 E3 HD HT T1 T2. unfold insert_with_neighbors.
  rewrite bind_chk by (now apply dtriangle_ok). rewrite E1, E2, E3. cbn [orb].
  rewrite (bind_ok _ _ _ _ _ _ _ HD), (bind_ok _ _ _ _ _ _ _ HT). cbn [expect]. rewrite bind_ret.
  rewrite !bind_chk by (now apply dtriangle_ok). reflexivity.
Qed.

Lemma ins_tail_agree : forall a F k x c,
  Repr a F -> live a x -> live a c -> x <> c -> ~ would_cycle F k x c ->
  ins_tail true k x c a = ins_tail false k x c a.
Proof.
  intros a F k x c R Lx Lc NE NC.
  destruct (detach_refines a F c R Lc) as (a1 & E1 & R1 & S1).
  pose proof (run_both _ (fun d => detach d c) _ _ (detach_agree a F c R Lc) E1) as E1b.
  assert (L1 : live a1 x) by (now apply (live_same_shape a a1)).
  assert (NC1 : ~ would_cycle (f_detach c F) k x c) by (intros H; apply NC; eapply would_cycle_detach; eauto).
  assert (HT : In [c] (tops (f_detach c F))) by (now left).
  destruct (gap_for_kind a1 F k x c R1 L1 NE NC1) as (par & A & B & EG & OK).
  destruct (gap_neq _ _ _ _ _ _ _ OK) as (N1 & N2 & N3).
  destruct (move_both a1 _ None c [] par A B _ R1 HT OK) as (D & T & T0 & T1 & T2 & _).
  cbv zeta in *. set (a2 := amap (transplantF _ _ _ _ _ _ _) _) in *.
  apply (run_alike _ (fun dbg => ins_tail dbg k x c a)). exists (a2, Ok NOk). intros dbg. unfold ins_tail.
  rewrite (bind_ok _ _ _ _ _ _ _ (E1b dbg)), bind_rdi by (now apply live_inr). rewrite EG. cbn [fst snd].
  now rewrite (bind_ok _ _ _ _ _ _ _ (iwn_exec dbg _ _ _ _ _ _ _ T0 N1 N2 N3 (D dbg) (T dbg) T1 T2)).
Qed.

Theorem checked_insert_agree : forall a F k x c, Repr a F -> usable a x -> usable a c ->
  checked_insert true k x c a = checked_insert false k x c a.
Proof.
  intros a F k x c R Ux Uc. rewrite !checked_insert_eq.
  destruct (nid_eq_dec x c) as [E|NE].
  { subst c. now rewrite nid_eqb_refl. }
  rewrite nid_eqb_neq by congruence.
  rewrite !(bind_ok _ _ _ _ _ _ _ (either_removed_ok a x c (usable_inr _ _ Ux) (usable_inr _ _ Uc))).
  destruct Ux as [Lx|Rx].
  2:{ rewrite (removed_ltb _ _ Rx). reflexivity. }
  rewrite (live_ltb _ _ Lx). cbn [orb].
  destruct Uc as [Lc|Rc].
  2:{ rewrite (removed_ltb _ _ Rc). reflexivity. }
  rewrite (live_ltb _ _ Lc).
  destruct (ins_anc_ok a F k x c R Lx) as (b & Eb & Hb).
  rewrite !(bind_ok _ _ _ _ _ _ _ Eb). destruct b; [reflexivity|].
  apply (ins_tail_agree a F); auto. intros W. apply Hb in W. discriminate.
Qed.

Theorem unchecked_insert_agree : forall a F k x c, Repr a F -> usable a x -> usable a c ->
  unchecked_insert true k x c a = unchecked_insert false k x c a.
Proof.
  intros a F k x c R Ux Uc. rewrite !unchecked_insert_eq. unfold bind.
  now rewrite (checked_insert_agree a F k x c R Ux Uc).
Qed.

Theorem append_value_agree : forall w F p v, Repr (ar w) F -> AllocOK w -> usable (ar w) p ->
  append_value true p v (ar w) = append_value false p v (ar w).
Proof.
  intros w F p v R OK [Lp|SR].
  2:{ now rewrite !(Assembly.append_value_removed _ _ p v SR). }
  destruct (Assembly.append_full w F p v R OK Lp) as (a1 & _ & x & E1 & _ & R1 & _ & NL & _ & Lp1 & _ & NE & _).
  pose proof (run_both _ (fun d => new_node d v) _ _ (new_node_dbg w v OK) E1) as E1b.
  assert (HT : In [x] (tops (f_new x F))) by (now left).
  destruct (move_both a1 _ None x [] (Some p) (kidsf F p) [] _ R1 HT
              (Assembly.append_gap (ar w) a1 F p x R NL Lp1 NE)) as (_ & T & _ & T1 & _).
  cbv zeta in T, T1. rewrite (mv_a1_top a1 _ None x [] R1 HT eq_refl) in T, T1.
  cbn [hd_error List.last] in T, T1.
  assert (El : last (nd a1 p) = last_error (kidsf F p)) by (now destruct (ends_of a1 _ R1 p Lp1)).
  rewrite <- El in T, T1.
  assert (IL : forall dbg, insert_last_unchecked dbg x p a1 = (amap (iluF a1 x p) a1, Ok tt)).
  { intros dbg. unfold insert_last_unchecked. rewrite bind_rdi by (now apply live_inr).
    rewrite (bind_ok _ _ _ _ _ _ _ (T dbg)). cbn [expect]. rewrite bind_ret. now apply dtriangle_ok. }
  apply (run_alike _ (fun dbg => append_value dbg p v (ar w))). exists (amap (iluF a1 x p) a1, Ok x).
  intros dbg. unfold append_value. rewrite bind_rdi by (now apply live_inr).
  unfold node_is_removed, st_is_removed. rewrite (live_ltb _ _ Lp). cbv iota.
  now rewrite bind_ret, (bind_ok _ _ _ _ _ _ _ (E1b dbg)), (bind_ok _ _ _ _ _ _ _ (IL dbg)).
Qed.

Lemma alloc_free_inv : forall w, AllocOK w -> lfree (ar w) = None -> ffree (ar w) = None.
Proof.
  intros w OK H. destruct (al_free _ OK) as (FL & Hseg & Hlast & _).
  rewrite H in Hlast. symmetry in Hlast. apply last_error_None in Hlast. subst FL. exact Hseg.
Qed.

Lemma shape_slot : forall w b x, AllocOK w -> same_shape (ar w) b -> live (ar w) x ->
  exists m, nth_error (nodes b) (idx x) = Some m /\ (0 <= stamp m)%Z /\
    (lfree b = None -> ffree b = None) /\ ReprRemove.lfree_ok b.
Proof.
  intros w b x OK Sh (n & Hn & S & G). pose proof Sh as (LEN & FF & LF & SH).
  destruct (SH _ _ Hn) as (m & Hm & Sm & _). exists m. split; auto. split; [|split].
  - now rewrite Sm, S.
  - rewrite FF, LF. now apply alloc_free_inv.
  - eapply ReprRemove.same_shape_lfree_ok; eauto. now apply Assembly.AllocOK_lfree_ok.
Qed.

(* from free_node on remove behaves alike in both builds, x being a lone root *)
Lemma remove_tail_agree : forall w b x, AllocOK w -> same_shape (ar w) b -> live (ar w) x ->
  node_is_detached (nd b x) = true ->
  exists r, forall dbg,
    (old <- free_node dbg x ;; n' <- rdi x ;; dassert dbg (node_is_detached n') ;;; ret old) b = r.
Proof.
  intros w b x OK Sh Lx HD.
  destruct (shape_slot w b x OK Sh Lx) as (m & Hm & Hs & HL & LO). rewrite (nd_at _ _ _ Hm) in HD.
  destruct (ReprRemove.free_node_exec b x m Hm Hs LO) as (b' & old & E & _ & _ & [Len S]).
  destruct (S _ _ Hm) as (m' & Hm' & [SL _]).
  assert (HD' : node_is_detached m' = true).
  { unfold node_is_detached in *. destruct SL as (-> & -> & -> & _). exact HD. }
  eexists. intros dbg.
  rewrite (bind_ok _ _ _ _ _ _ _ (E dbg (fun _ => HL))), (bind_ok _ _ _ _ _ _ _ (rd_ok _ _ _ Hm' : rdi x b' = _)).
  rewrite bind_dassert by exact HD'. reflexivity.
Qed.

Theorem remove_agree : forall w F x, Repr (ar w) F -> AllocOK w -> live (ar w) x ->
  remove true x (ar w) = remove false x (ar w).
Proof.
  intros w F x R OK Lx.
  destruct (ReprRemove.remove_stages (ar w) F x R Lx) as (o & A & B & a1 & HS & E1 & R1 & Sh1 & REST).
  pose proof (run_both _ (fun d => detach d x) _ _ (detach_agree _ F x R Lx) E1) as E1b.
  destruct (sibs_mid _ F R _ _ _ _ HS) as [Pv Px].
  assert (Po : parent (nd (ar w) x) = o) by exact (links_of _ F R o A x B Fparent HS).
  destruct (ends_of _ F R x Lx) as [Pf Pl].
  assert (Ix : inr (ar w) x) by (now apply live_inr).
  destruct (repr_tri_mid _ F R o A x B HS) as [Tv Tx]. destruct (repr_tri_ends _ F R x Lx) as [Tf Tl].
  (* the call up to the splice, in either build *)
  assert (RUN : forall dbg, remove dbg x (ar w) =
            (match hd_error (kidsf F x), last_error (kidsf F x) with
             | Some f, Some l => detach_from_siblings dbg f l ;;;
                                 (r <- transplant dbg f l o (last_error A) (hd_error B) ;; expect r)
             | _, _ => ret tt
             end ;;;
             old <- free_node dbg x ;; n' <- rdi x ;; dassert dbg (node_is_detached n') ;;; ret old) a1).
  { intros dbg. unfold remove. rewrite bind_chk.
    2:{ destruct dbg; [|reflexivity]. cbn [when_dbg]. rewrite bind_rdi by auto. rewrite Po, Pv, Px.
        rewrite !bind_chk by (now apply atn_ok). now apply atn_ok. }
    rewrite bind_rdi by auto. cbv beta. rewrite Pf, Pl, Po, Pv, Px.
    replace (Bool.eqb _ _) with true by (destruct (kidsf F x); reflexivity).
    now rewrite bind_ret, (bind_ok _ _ _ _ _ _ _ (E1b dbg)). }
  apply (run_alike _ (fun dbg => remove dbg x (ar w))).
  destruct (kidsf F x) as [|f S'] eqn:EK; cbn [hd_error last_error] in RUN.
  - destruct (remove_tail_agree w a1 x OK Sh1 Lx) as [r Hr].
    { apply (lone_top_detached a1 (f_detach x F) x R1). now left. }
    exists r. intros dbg. now rewrite RUN, bind_ret, Hr.
  - destruct REST as [HS1 MV].
    destruct (move_refines a1 _ (Some x) f S' o A B _ R1 HS1 MV) as (_ & R3 & Sh3).
    destruct (move_both a1 _ (Some x) f S' o A B _ R1 HS1 MV) as (D & T & _). cbv zeta in D, T, R3, Sh3.
    destruct (remove_tail_agree w _ x OK (same_shape_trans _ _ _ Sh1 Sh3) Lx) as [r Hr].
    { apply (lone_top_detached _ _ x R3). now left. }
    exists r. intros dbg.
    rewrite RUN, bind_assoc, (bind_ok _ _ _ _ _ _ _ (D dbg)), bind_assoc, (bind_ok _ _ _ _ _ _ _ (T dbg)).
    cbn [expect]. now rewrite bind_ret, Hr.
Qed.

Theorem remove_subtree_agree : forall w F x, Repr (ar w) F -> AllocOK w -> live (ar w) x ->
  remove_subtree true x (ar w) = remove_subtree false x (ar w).
Proof.
  intros w F x R OK Lx.
  destruct (ReprRemove.remove_subtree_stages (ar w) F x R Lx) as (a1 & E1 & _ & Sh & ED & ND & LD).
  set (D := preorderF (length (nodes (ar w))) F x) in *.
  pose proof (run_both _ (fun d => detach d x) _ _ (detach_agree _ F x R Lx) E1) as E1b.
  assert (EL : lift (descendants x) a1 = (a1, Ok D)) by (unfold lift; now rewrite ED).
  destruct (shape_slot w a1 x OK Sh Lx) as (_ & _ & _ & HL & LO).
  destruct (ReprRemove.free_all_exec D a1 ND) as (a' & olds & Hr & _); auto.
  { intros y Hy. assert (Ly : live (ar w) y) by (apply (live_same_shape _ a1 y Sh); auto).
    destruct (shape_slot w a1 y OK Sh Ly) as (m & Hm & Hs & _). eauto. }
  apply (run_alike _ (fun dbg => remove_subtree dbg x (ar w))). eexists. intros dbg. unfold remove_subtree.
  rewrite (bind_ok _ _ _ _ _ _ _ (E1b dbg)), (bind_ok _ _ _ _ _ _ _ EL).
  rewrite (bind_ok _ _ _ _ _ _ _ (Hr dbg (fun _ => HL))). reflexivity.
Qed.

Theorem debug_agrees : forall w o, WF w -> valid_op (ar w) o -> step true w o = step false w o.
Proof.
  intros w o [[F R] OK] V.
  destruct o as [v|p v|k chk x c|x|x|x|x v| |n]; cbn [valid_op] in V.
  - cbn [step]. now rewrite (new_node_dbg w v OK).
  - cbn [step]. now rewrite (append_value_agree w F p v R OK V).
  - destruct V as [Ux Uc]. destruct chk; cbn [step].
    + now rewrite (checked_insert_agree _ F k x c R Ux Uc).
    + now rewrite (unchecked_insert_agree _ F k x c R Ux Uc).
  - cbn [step]. now rewrite (detach_agree _ F x R V).
  - cbn [step]. now rewrite (remove_agree w F x R OK V).
  - cbn [step]. now rewrite (remove_subtree_agree w F x R OK V).
  - reflexivity.
  - reflexivity.
  - reflexivity.
Qed.

Lemma debug_hist_agrees : forall ops w d, WF w -> valid_hist d w ops ->
  run true ops w = run false ops w /\ forall d', valid_hist d' w ops.
Proof.
  induction ops as [|o r IH]; intros w d H V; [split; [reflexivity | intros; exact I]|].
  destruct V as [V1 V2].
  assert (E : forall d', step d' w o = step false w o) by (intros [|]; [now apply debug_agrees | reflexivity]).
  rewrite E in V2. destruct (IH _ _ (Assembly.step_WF w o H V1) V2) as [E1 E2]. split.
  - change (run true r (fst (step true w o)) = run false r (fst (step false w o))). now rewrite E.
  - intros d'. cbn [valid_hist]. rewrite E. auto.
Qed.

Corollary debug_run_agrees : forall ops w, WF w -> valid_hist false w ops ->
  run true ops w = run false ops w /\ valid_hist true w ops.
Proof. intros ops w H V. destruct (debug_hist_agrees ops w false H V). auto. Qed.

Corollary debug_reachable : forall ops, valid_hist true init ops ->
  valid_hist false init ops /\ run true ops init = run false ops init.
Proof. intros ops V. destruct (debug_hist_agrees ops init true Assembly.WF_init V). auto. Qed.

(* in particular no debug assertion, triangle check or overflow check ever fires on a valid call *)
Corollary debug_no_assert : forall w o, WF w -> valid_op (ar w) o ->
  snd (step true w o) <> OutPanic P_DEBUG_ASSERT /\ snd (step true w o) <> OutPanic P_TRIANGLE /\
  snd (step true w o) <> OutPanic P_OVERFLOW.
Proof.
  intros w o H V. rewrite (debug_agrees w o H V).
  destruct (Assembly.step_total w o H V) as [_ P].
  repeat split; intros E; destruct (P _ E) as (C & _); discriminate.
Qed.

Print Assumptions debug_agrees.
Print Assumptions debug_run_agrees.
Print Assumptions debug_reachable.
Print Assumptions debug_no_assert.
