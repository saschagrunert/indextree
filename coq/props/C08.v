(* C08 — A live node keeps its id and payload; each payload is dropped exactly once.
   In every reachable world: a node that is live before and after a valid call keeps its payload
   unless the call is a write to that very node (moves, removals, allocations, recycling of other
   slots do not alter it); a write stores exactly the new value; and over whole histories the
   payloads ever put into the arena are, as a multiset, exactly those dropped so far plus those
   still stored — so with distinct tokens nothing is dropped twice and nothing stored is dropped.
   (That overwriting NodeData drops the old value once is Rust's ownership semantics, modelled by
   free_node / write / clear returning what they drop.) *)
From IT Require Import Props.
From IT.proofs Require Import AllocProps Reach.
Require Import Permutation.

Theorem C08_payload_stable : forall ops o x, valid_hist false init ops -> let w := reach ops in
  valid_op (ar w) o -> live (ar w) x -> live (ar (fst (step false w o))) x ->
  (match o with OWrite y _ => y <> x | _ => True end) ->
  payload_of_id (ar (fst (step false w o))) x = payload_of_id (ar w) x.
Proof. intros ops o x H w. exact (step_payload_stable w o x (reach_WF ops H)). Qed.
Theorem C08_write : forall ops x v, valid_hist false init ops -> let w := reach ops in live (ar w) x ->
  payload_of_id (ar (fst (step false w (OWrite x v)))) x = Some v.
Proof. intros ops x v H w. exact (step_write w x v (reach_WF ops H)). Qed.
Theorem C08_payload_accounting : forall ops, valid_hist false init ops ->
  Permutation (introduced false ops init) (dropped (run false ops init) ++ stored (ar (run false ops init))).
Proof. exact hist_payload_accounting. Qed.
Theorem C08_drop_once : forall ops, valid_hist false init ops -> NoDup (introduced false ops init) ->
  NoDup (dropped (run false ops init)) /\
  (forall v, In v (dropped (run false ops init)) -> ~ In v (stored (ar (run false ops init)))).
Proof. exact hist_drop_once. Qed.

Print Assumptions C08_payload_stable.
Print Assumptions C08_write.
Print Assumptions C08_payload_accounting.
Print Assumptions C08_drop_once.
