(* SrcRel.v — gen/GenRel.v (relations.rs and siblings_range.rs, re-translated on every run) is the model's
   Relations.v, function by function. *)
From IT.proofs Require Import SrcTac SrcStamp.
From IT.gen Require Import GenStamp GenRel.
Open Scope mon_scope.

Lemma src_assert_triangle_nodes dbg p pv nx a :
  g_assert_triangle_nodes dbg p pv nx a = assert_triangle_nodes p pv nx a.
Proof. unfold g_assert_triangle_nodes, assert_triangle_nodes, assert_eq_onid. lockstep. Qed.
#[export] Hint Resolve src_assert_triangle_nodes : src.

Lemma ro_triangle p pv nx : read_only (assert_triangle_nodes p pv nx).
Proof. unfold assert_triangle_nodes, assert_eq_onid, rdi. destruct pv, nx; auto 12 with ro nocore. Qed.
Lemma ro_expect r : read_only (expect r).
Proof. destruct r; [apply ro_ret|apply ro_panic]. Qed.
#[export] Hint Resolve ro_triangle ro_expect : ro.

Lemma src_connect_neighbors dbg p pv nx a :
  g_connect_neighbors dbg p pv nx a = connect_neighbors dbg p pv nx a.
Proof.
  (* by cases on the parent: its two ends are fetched as an option of the node by one program and as a pair by
     the other, so that statement has no common type *)
  destruct p as [p|]; unfold g_connect_neighbors, connect_neighbors, dparent_ends_agree, dnot_removed; lockstep.
  (* with a parent: its two ends are written one after the other, in the model at once *)
  all: rhs (upd_split _ _ _ _ _); lockstep.
Qed.
#[export] Hint Resolve src_connect_neighbors : src.

Lemma src_range_new dbg f l a : g_SiblingsRange_new dbg f l a = (a, Ok (f, l)).
Proof. reflexivity. Qed.
Lemma src_drange_new dbg f l a : g_DetachedSiblingsRange_new dbg f l a = (a, Ok (f, l)).
Proof. reflexivity. Qed.

Lemma src_detach_from_siblings dbg f l a :
  g_SiblingsRange_detach_from_siblings dbg (f, l) a = then_ret (detach_from_siblings dbg f l) (f, l) a.
Proof.
  unfold g_SiblingsRange_detach_from_siblings, detach_from_siblings; lockstep.
Qed.

Lemma src_rewrite_parents_loop dbg fuel co p self a :
  g_DetachedSiblingsRange_rewrite_parents_loop1 dbg fuel co p self a = rewrite_parents_loop fuel co p a.
Proof.
  revert co a. induction fuel as [|fuel IH]; intros co a; destruct co as [c|]; cbn [g_DetachedSiblingsRange_rewrite_parents_loop1 rewrite_parents_loop]; try reflexivity.
  lockstep.
Qed.

Lemma src_rewrite_parents dbg f l p a :
  g_DetachedSiblingsRange_rewrite_parents dbg (f, l) p a = rewrite_parents f p a.
Proof.
  unfold g_DetachedSiblingsRange_rewrite_parents, rewrite_parents. lockstep. apply src_rewrite_parents_loop.
Qed.
#[export] Hint Resolve src_range_new src_drange_new src_detach_from_siblings src_rewrite_parents : src.

Lemma src_transplant dbg f l p pv nx a :
  g_DetachedSiblingsRange_transplant dbg (f, l) p pv nx a = transplant dbg f l p pv nx a.
Proof.
  unfold g_DetachedSiblingsRange_transplant, transplant, dparent_ends_agree; lockstep.
Qed.
#[export] Hint Resolve src_transplant : src.

Lemma src_insert_with_neighbors dbg new p pv nx a :
  g_insert_with_neighbors dbg new p pv nx a = insert_with_neighbors dbg new p pv nx a.
Proof.
  unfold g_insert_with_neighbors, insert_with_neighbors; lockstep.
Qed.

Lemma src_insert_last_unchecked dbg new par a :
  g_insert_last_unchecked dbg new par a = insert_last_unchecked dbg new par a.
Proof.
  unfold g_insert_last_unchecked, insert_last_unchecked; lockstep.
Qed.
#[export] Hint Resolve src_insert_with_neighbors src_insert_last_unchecked : src.
