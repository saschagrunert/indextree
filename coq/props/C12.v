(* C12 — A removed node is out of every tree and can never be attached again.
   In every reachable world: a removed slot has none of the five links; no link of a live node
   names anything but a live node (so no link or traversal leads to a removed one); with a removed
   id in either position the checked inserts err with a reason that applies, the unchecked forms
   and append_value panic, and the arena is unchanged in all nine cases; a node created in a
   recycled slot starts with no links (C07_new_node: fresh_node). *)
From IT Require Import Props.
From IT.proofs Require Import Reach StateProps MonitorSound.
Open Scope Z_scope.

Theorem C12_no_links : forall ops i n, valid_hist false init ops -> let w := reach ops in
  nth_error (nodes (ar w)) i = Some n -> stamp n < 0 ->
  parent n = None /\ prev n = None /\ next n = None /\ first n = None /\ last n = None.
Proof. intros ops i n H. destruct (reach_repr ops H) as [F R]. exact (r_dead _ _ R i n). Qed.
Theorem C12_unreachable : forall ops, valid_hist false init ops ->
  forall x n f z, live (ar (reach ops)) x -> node_at (ar (reach ops)) x n -> getf f n = Some z -> live (ar (reach ops)) z.
Proof.
  intros ops H. destruct (reach_repr ops H) as [F R]. intros x n f z Lx Hn Hz.
  destruct (repr_links_ok _ F R x n Lx Hn) as (L & _). exact (L f z Hz).
Qed.
Theorem C12_refused_checked : forall ops k x c F, valid_hist false init ops -> let w := reach ops in
  Repr (ar w) F -> usable (ar w) x -> usable (ar w) c -> slot_removed (ar w) x \/ slot_removed (ar w) c ->
  exists e, snd (step false w (OInsert k true x c)) = OutErr e /\ reason_applies (ar w) F k x c e /\
            ar (fst (step false w (OInsert k true x c))) = ar w.
Proof.
  intros ops k x c F H w HF Hx Hc Hr.
  apply (proj1 (reach_checked ops k x c F H HF Hx Hc)). unfold impossible. tauto.
Qed.
Theorem C12_refused_unchecked : forall ops k x c F, valid_hist false init ops -> let w := reach ops in
  Repr (ar w) F -> usable (ar w) x -> usable (ar w) c -> slot_removed (ar w) x \/ slot_removed (ar w) c ->
  snd (step false w (OInsert k false x c)) = OutPanic P_PRECOND /\ ar (fst (step false w (OInsert k false x c))) = ar w.
Proof.
  intros ops k x c F H w HF Hx Hc Hr.
  apply (proj1 (reach_unchecked ops k x c F H HF Hx Hc)). unfold impossible. tauto.
Qed.
Theorem C12_refused_append_value : forall ops p v, valid_hist false init ops -> let w := reach ops in
  slot_removed (ar w) p ->
  snd (step false w (OAppendValue p v)) = OutPanic P_PRECOND /\ ar (fst (step false w (OAppendValue p v))) = ar w.
Proof.
  intros ops p v H w Hp. destruct (reach_repr ops H) as [F R].
  exact (proj1 (Assembly.step_outcome w (OAppendValue p v) F R (reach_alloc ops H) (or_intror Hp)) Hp).
Qed.
Theorem C12_monitor_silent : forall ops, valid_hist false init ops -> c12_state (ar (reach ops)) = [].
Proof. intros ops H. destruct (reach_repr ops H) as [F R]. exact (repr_c12_silent _ F R). Qed.

Theorem C12_monitor_sound : forall a, c12_state a = [] ->
  forall i n, nth_error (nodes a) i = Some n -> stamp n < 0 ->
    parent n = None /\ prev n = None /\ next n = None /\ first n = None /\ last n = None.
Proof. exact c12_state_sound. Qed.

Print Assumptions C12_no_links.
Print Assumptions C12_monitor_sound.
Print Assumptions C12_unreachable.
Print Assumptions C12_refused_checked.
Print Assumptions C12_refused_unchecked.
Print Assumptions C12_refused_append_value.
Print Assumptions C12_monitor_silent.
