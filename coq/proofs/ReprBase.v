(* ReprBase.v — live ids, sibling segments [dseg] and how they transfer between arenas, and what an arena
   that represents a forest ([Repr a F]) tells about sibling lists, links, depth and ancestors. *)
From IT Require Import NodeOps Forest.
From IT.proofs Require Export Layer1.
Require Import Lia.
Local Open Scope nat_scope.

Lemma node_at_nd : forall a x n, node_at a x n <-> inr a x /\ nd a x = n.
Proof.
  intros. unfold node_at. split.
  - intros H. split; [eapply node_inr; eauto | now apply nd_at].
  - intros [I <-]. now apply at_nd.
Qed.

Lemma live_inr : forall a x, live a x -> inr a x.
Proof. intros a x (n & H & _). eapply node_inr; eauto. Qed.
Lemma live_stamp : forall a x, live a x -> stamp (nd a x) = gen x /\ (0 <= gen x)%Z.
Proof. intros a x (n & H & S & G). apply nd_at in H. now subst. Qed.
Lemma live_nd : forall a x, live a x <-> inr a x /\ stamp (nd a x) = gen x /\ (0 <= gen x)%Z.
Proof.
  intros. split.
  - intros (n & H & S). apply node_at_nd in H. destruct H as [I <-]. auto.
  - intros [I S]. exists (nd a x). split; auto. now apply at_nd.
Qed.

Lemma live_inj : forall a x y, live a x -> live a y -> idx x = idx y -> x = y.
Proof.
  intros a [i g] [j h] Hx Hy E. cbn in E; subst j.
  apply live_stamp in Hx, Hy. unfold nd in *. cbn in *. destruct Hx, Hy. f_equal. congruence.
Qed.

Lemma live_idx_eqb : forall a x y, live a x -> live a y -> Nat.eqb (idx x) (idx y) = nid_eqb x y.
Proof.
  intros a x y Lx Ly. destruct (nid_eq_dec x y) as [->|N]; [now rewrite Nat.eqb_refl, nid_eqb_refl|].
  rewrite nid_eqb_neq by auto. apply Nat.eqb_neq. intros E. eauto using live_inj.
Qed.

Lemma live_NoDup_idx : forall a L, NoDup L -> (forall y, In y L -> live a y) -> NoDup (map idx L).
Proof.
  intros a. induction 1 as [|x l Hx N IH]; intros LV; cbn; constructor.
  - intros Hi. apply in_map_iff in Hi. destruct Hi as (y & E & Hy).
    assert (y = x). { eapply live_inj; eauto. - apply LV; now right. - apply LV; now left. }
    subst; contradiction.
  - apply IH. intros; apply LV; now right.
Qed.

Lemma live_list_bound : forall a L, NoDup L -> (forall y, In y L -> live a y) -> length L <= length (nodes a).
Proof.
  intros a L N LV. rewrite <- (map_length idx L). apply NoDup_idx_bound; [now apply (live_NoDup_idx a)|].
  intros i Hi. apply in_map_iff in Hi. destruct Hi as (y & <- & Hy). exact (live_inr _ _ (LV _ Hy)).
Qed.

Lemma slot_removed_inr : forall a x, slot_removed a x -> inr a x.
Proof. intros a x (n & H & _). eapply node_inr; eauto. Qed.
Lemma slot_removed_stamp : forall a x, slot_removed a x <-> inr a x /\ (stamp (nd a x) < 0)%Z.
Proof.
  intros. split.
  - intros (n & H & S). apply node_at_nd in H. destruct H as [I <-]. auto.
  - intros [I S]. exists (nd a x). split; auto. now apply at_nd.
Qed.
Lemma live_not_removed : forall a x, live a x -> ~ slot_removed a x.
Proof. intros a x L R. apply live_stamp in L. apply slot_removed_stamp in R. lia. Qed.
Lemma usable_inr : forall a x, usable a x -> inr a x.
Proof. intros a x [H|H]; [now apply live_inr | now apply slot_removed_inr]. Qed.

Lemma stamp_nd_amap : forall F a x, links_only F -> stamp (nd (amap F a) x) = stamp (nd a x).
Proof. intros F a x H. apply (nd_amap_keep stamp). intros. apply H. Qed.
Lemma live_amap : forall F a x, links_only F -> (live (amap F a) x <-> live a x).
Proof. intros. rewrite !live_nd, inr_amap, stamp_nd_amap by auto. reflexivity. Qed.
Lemma slot_removed_amap : forall F a x, links_only F -> (slot_removed (amap F a) x <-> slot_removed a x).
Proof. intros. rewrite !slot_removed_stamp, inr_amap, stamp_nd_amap by auto. reflexivity. Qed.

Lemma oat_live : forall a o y, live a y -> (forall v, o = Some v -> live a v) ->
  oat o (idx y) = onid_eqb o (Some y).
Proof.
  intros a [v|] y L H; cbn; auto. rewrite Nat.eqb_sym. apply (live_idx_eqb a); auto.
Qed.

Lemma oat_dead : forall a o i n, nth_error (nodes a) i = Some n -> (stamp n < 0)%Z ->
  (forall v, o = Some v -> live a v) -> oat o i = false.
Proof.
  intros a [v|] i n E S H; cbn; auto. apply Nat.eqb_neq. intros ->.
  destruct (live_stamp _ _ (H v eq_refl)) as [S1 S2].
  pose proof (nd_at a v n E). subst n. lia.
Qed.

Lemma existsb_idx_live : forall a y l, live a y -> (forall z, In z l -> live a z) ->
  existsb (Nat.eqb (idx y)) (map idx l) = nid_in y l.
Proof.
  intros a y. induction l as [|z l IH]; intros Ly H; [reflexivity|].
  cbn [map existsb nid_in]. f_equal.
  - apply (live_idx_eqb a); auto. apply H. now left.
  - apply IH; auto. intros w Hw. apply H. now right.
Qed.

Lemma existsb_idx_dead : forall a i n l, nth_error (nodes a) i = Some n -> (stamp n < 0)%Z ->
  (forall z, In z l -> live a z) -> existsb (Nat.eqb i) (map idx l) = false.
Proof.
  intros a i n. induction l as [|z l IH]; intros Hn Hneg H; [reflexivity|].
  cbn [map existsb]. rewrite IH by (auto; intros w Hw; apply H; now right).
  rewrite orb_false_r. apply (oat_dead a (Some z) i n Hn Hneg). intros v [= <-]. apply H. now left.
Qed.

Lemma dseg_cons : forall a o pv x r nx,
  dseg a o pv (x :: r) nx <->
  inr a x /\ parent (nd a x) = o /\ prev (nd a x) = pv /\ next (nd a x) = or_else (hd_error r) nx
  /\ dseg a o (Some x) r nx.
Proof.
  intros. cbn [dseg]. split.
  - intros (n & H & P & V & N & D). apply node_at_nd in H. destruct H as [I <-].
    repeat split; auto. destruct r; auto.
  - intros (I & P & V & N & D). exists (nd a x). repeat split; auto.
    + now apply at_nd. + destruct r; auto.
Qed.

Lemma or_else_last_cons : forall (x : nid) r, or_else (last_error r) (Some x) = last_error (x :: r).
Proof. intros x [|y r]; [reflexivity|]. now rewrite last_error_cons. Qed.

Lemma dseg_app : forall a o A B pv nx,
  dseg a o pv (A ++ B) nx <->
  dseg a o pv A (or_else (hd_error B) nx) /\ dseg a o (or_else (last_error A) pv) B nx.
Proof.
  induction A as [|x r IH]; intros B pv nx.
  - cbn. tauto.
  - change ((x :: r) ++ B) with (x :: r ++ B). rewrite !dseg_cons, IH, hd_error_app, or_else_last_cons.
    destruct r; cbn [hd_error or_else last_error]; tauto.
Qed.

Lemma dseg_In : forall a o L pv nx y, dseg a o pv L nx -> In y L -> inr a y /\ parent (nd a y) = o.
Proof.
  intros a o L pv nx y D H. apply in_split in H. destruct H as (A & B & ->).
  apply dseg_app in D. destruct D as [_ D]. apply dseg_cons in D. tauto.
Qed.
Lemma dseg_inr : forall a o L pv nx y, dseg a o pv L nx -> In y L -> inr a y.
Proof. intros. eapply dseg_In; eauto. Qed.
Lemma dseg_parent : forall a o L pv nx y, dseg a o pv L nx -> In y L -> parent (nd a y) = o.
Proof. intros. eapply dseg_In; eauto. Qed.

Lemma dseg_mid : forall a o A x B pv nx, dseg a o pv (A ++ x :: B) nx ->
  prev (nd a x) = or_else (last_error A) pv /\ next (nd a x) = or_else (hd_error B) nx.
Proof.
  intros a o A x B pv nx D. apply dseg_app in D. destruct D as [_ D].
  apply dseg_cons in D. tauto.
Qed.

(* transfer of a segment to another arena: frame, new boundary links, new parent, all in one *)
Lemma dseg_rebuild : forall a a' o o' L pv pv' nx nx',
  dseg a o pv L nx -> NoDup L -> length (nodes a') = length (nodes a) ->
  (forall y, In y L -> parent (nd a' y) = o') ->
  (forall y, In y L -> prev (nd a' y) = if onid_eqb (hd_error L) (Some y) then pv' else prev (nd a y)) ->
  (forall y, In y L -> next (nd a' y) = if onid_eqb (last_error L) (Some y) then nx' else next (nd a y)) ->
  dseg a' o' pv' L nx'.
Proof.
  intros a a' o o' L. induction L as [|x r IH]; intros pv pv' nx nx' D ND LEN HP HV HN; [exact I|].
  apply dseg_cons in D. destruct D as (Ix & P & V & N & D).
  inversion ND as [|? ? Hx ND']; subst.
  apply dseg_cons. repeat split.
  - unfold inr in *. lia.
  - apply HP. now left.
  - rewrite HV by (now left). cbn [hd_error]. now rewrite onid_eqb_refl.
  - rewrite HN by (now left). destruct r as [|y r].
    + cbn. now rewrite nid_eqb_refl.
    + rewrite last_error_cons.
      destruct (onid_eqb (last_error (y :: r)) (Some x)) eqn:E.
      * apply onid_eqb_eq in E. apply last_error_In in E. contradiction.
      * rewrite N. reflexivity.
  - apply (IH (Some x) (Some x) nx nx'); auto.
    + intros y Hy. apply HP. now right.
    + intros y Hy. rewrite HV by (now right). cbn [hd_error onid_eqb].
      rewrite nid_eqb_neq by (intros ->; contradiction).
      destruct (onid_eqb (hd_error r) (Some y)) eqn:E; auto.
      apply onid_eqb_eq in E. destruct r as [|z r]; [discriminate|]. inversion E; subst z.
      apply dseg_cons in D. tauto.
    + intros y Hy. rewrite HN by (now right). destruct r as [|z r]; [destruct Hy|].
      now rewrite last_error_cons.
Qed.

Lemma dseg_transfer : forall a a' o xs pv nx,
  (forall y n, In y xs -> node_at a y n ->
     exists n', node_at a' y n' /\ parent n' = parent n /\ prev n' = prev n /\ next n' = next n) ->
  dseg a o pv xs nx -> dseg a' o pv xs nx.
Proof.
  intros a a' o. induction xs as [|y r IH]; intros pv nx H Hd; cbn [dseg] in *; auto.
  destruct Hd as (n & Hn & Hp & Hv & Hx & Hr).
  destruct (H y n (or_introl eq_refl) Hn) as (n' & Hn' & E1 & E2 & E3).
  exists n'. repeat split; try congruence. apply IH; auto. intros z m Hz. apply H. now right.
Qed.

Lemma dseg_frame : forall a a' o L pv nx,
  dseg a o pv L nx -> length (nodes a') = length (nodes a) ->
  (forall y, In y L -> parent (nd a' y) = parent (nd a y) /\ prev (nd a' y) = prev (nd a y)
                        /\ next (nd a' y) = next (nd a y)) ->
  dseg a' o pv L nx.
Proof.
  intros a a' o L pv nx D LEN H. apply (dseg_transfer a); auto.
  intros y n Hy Hn. apply node_at_nd in Hn. destruct Hn as [I <-]. exists (nd a' y). split; auto.
  apply node_at_nd. split; auto. unfold inr in *. lia.
Qed.

Lemma dseg_suffix_eq : forall a o B1 B2 x pv1 pv2,
  dseg a o pv1 (x :: B1) None -> dseg a o pv2 (x :: B2) None -> B1 = B2.
Proof.
  induction B1 as [|y B1 IH]; intros B2 x pv1 pv2 D1 D2;
    apply dseg_cons in D1; apply dseg_cons in D2;
    destruct D1 as (_ & _ & _ & N1 & D1), D2 as (_ & _ & _ & N2 & D2); rewrite N1 in N2.
  - destruct B2; auto; discriminate.
  - destruct B2 as [|z B2]; [discriminate|]. cbn in N2. inversion N2; subst z. f_equal. eauto.
Qed.

Lemma dseg_prefix_eq : forall a o A1 A2 x nx1 nx2,
  dseg a o None (A1 ++ [x]) nx1 -> dseg a o None (A2 ++ [x]) nx2 -> A1 = A2.
Proof.
  induction A1 as [|y A1 IH] using rev_ind; intros A2 x nx1 nx2 D1 D2;
    pose proof (dseg_mid _ _ _ _ _ _ _ D1) as [V1 _]; pose proof (dseg_mid _ _ _ _ _ _ _ D2) as [V2 _];
    rewrite V1 in V2.
  - cbn in V2. destruct (last_error A2) eqn:E; [discriminate|]. now apply last_error_None in E.
  - rewrite last_error_snoc in V2. cbn in V2.
    destruct (last_error A2) eqn:E; [|discriminate]. cbn in V2. inversion V2; subst n.
    apply last_error_split in E. destruct E as [A2' ->]. f_equal.
    apply dseg_app in D1. apply dseg_app in D2. destruct D1 as [D1 _], D2 as [D2 _]. eauto.
Qed.

Lemma dseg_hd : forall a o pv L nx y, dseg a o pv L nx -> hd_error L = Some y -> prev (nd a y) = pv.
Proof. intros a o pv [|z L] nx y D H; inversion H; subst. apply dseg_cons in D. tauto. Qed.

Lemma dseg_last : forall a o L pv nx y, dseg a o pv L nx -> last_error L = Some y -> next (nd a y) = nx.
Proof.
  intros a o L pv nx y D H. apply last_error_split in H. destruct H as [L' ->].
  apply dseg_mid in D. destruct D as [_ D]. exact D.
Qed.

(* the two one-sided cases: only the link out of the last (of the first) element is redirected *)
Lemma dseg_retail : forall a a' o o' L pv nx nx',
  dseg a o pv L nx -> NoDup L -> length (nodes a') = length (nodes a) ->
  (forall y, In y L -> parent (nd a' y) = o' /\ prev (nd a' y) = prev (nd a y) /\
     next (nd a' y) = if onid_eqb (last_error L) (Some y) then nx' else next (nd a y)) ->
  dseg a' o' pv L nx'.
Proof.
  intros a a' o o' L pv nx nx' D ND LEN H.
  apply (dseg_rebuild a a' o o' L pv pv nx nx'); auto; try (intros y Hy; now apply H).
  intros y Hy. destruct (H y Hy) as (_ & -> & _).
  destruct (onid_eqb (hd_error L) (Some y)) eqn:E; auto.
  apply onid_eqb_eq in E. eapply dseg_hd; eauto.
Qed.

Lemma dseg_rehead : forall a a' o o' L pv pv' nx,
  dseg a o pv L nx -> NoDup L -> length (nodes a') = length (nodes a) ->
  (forall y, In y L -> parent (nd a' y) = o' /\ next (nd a' y) = next (nd a y) /\
     prev (nd a' y) = if onid_eqb (hd_error L) (Some y) then pv' else prev (nd a y)) ->
  dseg a' o' pv' L nx.
Proof.
  intros a a' o o' L pv pv' nx D ND LEN H.
  apply (dseg_rebuild a a' o o' L pv pv' nx nx); auto; try (intros y Hy; now apply H).
  intros y Hy. destruct (H y Hy) as (_ & -> & _).
  destruct (onid_eqb (last_error L) (Some y)) eqn:E; auto.
  apply onid_eqb_eq in E. eapply dseg_last; eauto.
Qed.

Lemma dseg_next_run : forall a o xs pv, dseg a o pv xs None -> next_path a (hd_error xs) xs.
Proof.
  intros a o. induction xs as [|x r IH]; intros pv H; [reflexivity|].
  apply dseg_cons in H. destruct H as (_ & _ & _ & N & D). cbn [next_path hd_error]. split; auto.
  rewrite N. replace (or_else (hd_error r) None) with (hd_error r) by (destruct r; reflexivity). eauto.
Qed.

(* the same forest: equal child lists, the same set of chains (their order in [tops] carries no meaning) *)
Definition feq (F F' : forest) : Prop :=
  (forall p, kidsf F p = kidsf F' p) /\ (forall c, In c (tops F) <-> In c (tops F')).

Lemma feq_sym : forall F F', feq F F' -> feq F' F.
Proof. intros F F' [H1 H2]. split; intros; [now rewrite H1 | now rewrite H2]. Qed.

Lemma memberF_ext : forall F F' x, feq F F' -> memberF F x -> memberF F' x.
Proof.
  intros F F' x [H1 H2] [[p H]|(c & Hc & H)].
  - left. exists p. now rewrite <- H1.
  - right. exists c. split; auto. now apply H2.
Qed.
Lemma depthF_ext : forall F F' x d, feq F F' -> depthF F x d -> depthF F' x d.
Proof.
  intros F F' x d [H1 H2]. induction 1.
  - eapply depth_top; eauto. now apply H2.
  - eapply depth_kid; eauto. now rewrite <- H1.
Qed.
Lemma ancF_ext : forall F F' x y, feq F F' -> ancF F x y -> ancF F' x y.
Proof.
  intros F F' x y [H1 H2]. induction 1; [constructor|]. eapply anc_step; eauto. now rewrite <- H1.
Qed.

Lemma ancF_inv : forall F x y, ancF F x y <-> x = y \/ exists p, In x (kidsf F p) /\ ancF F p y.
Proof.
  intros F x y. split.
  - intros H. inversion H; subst; eauto.
  - intros [<-|(p & Hp & Ha)]; [constructor | econstructor; eauto].
Qed.
Lemma anc_trans : forall F z y x, ancF F z y -> ancF F y x -> ancF F z x.
Proof. intros F z y x H. induction H as [x0 | z p y Hp Ha IH]; intros H'; auto. apply anc_step with p; auto. Qed.

Lemma anc_kid : forall F k x, In k (kidsf F x) -> ancF F k x.
Proof. intros. econstructor; eauto. constructor. Qed.

Lemma anc_top : forall F y x, ancF F y x -> y = x \/ exists k, In k (kidsf F x) /\ ancF F y k.
Proof.
  induction 1 as [x | y p x Hp Ha IH]; auto.
  right. destruct IH as [->|(k & Hk & Hak)].
  - exists y. split; auto. constructor.
  - exists k. split; auto. econstructor; eauto.
Qed.

Lemma Repr_ext : forall a F F', feq F F' -> Repr a F -> Repr a F'.
Proof.
  intros a F F' E R. pose proof (feq_sym _ _ E) as E'. destruct E as [H1 H2]. constructor.
  - intros x. rewrite <- (r_live _ _ R). split; apply memberF_ext; auto. split; auto.
  - intros p. rewrite <- H1. apply (r_kids _ _ R).
  - intros p. rewrite <- H1. apply (r_owner _ _ R).
  - intros c Hc. apply (r_tops _ _ R). now apply H2.
  - intros p n. rewrite <- H1. apply (r_ends _ _ R).
  - intros x Hx. destruct (r_depth _ _ R x) as [d Hd]. { eapply memberF_ext; eauto. }
    exists d. eapply depthF_ext; eauto. split; auto.
  - apply (r_dead _ _ R).
Qed.

(* L is a complete sibling list of F with owner o: the children of p, or a top-level chain (no owner).  Child
   lists and chains are treated alike through it. *)
Definition sibs (F : forest) (o : option nid) (L : list nid) : Prop :=
  match o with Some p => kidsf F p = L | None => In L (tops F) end.

Section ReprFacts.
Variables (a : arena) (F : forest).
Hypothesis R : Repr a F.

Lemma kid_live : forall p x, In x (kidsf F p) -> live a x.
Proof. intros. apply (r_live _ _ R). left; eauto. Qed.
Lemma top_live : forall c x, In c (tops F) -> In x c -> live a x.
Proof. intros. apply (r_live _ _ R). right; eauto. Qed.
Lemma owner_live : forall p x, In x (kidsf F p) -> live a p.
Proof. intros. apply (r_owner _ _ R). intros E. rewrite E in H. destruct H. Qed.
Lemma kid_parent : forall p x, In x (kidsf F p) -> parent (nd a x) = Some p.
Proof. intros. destruct (r_kids _ _ R p) as [D _]. eapply dseg_parent; eauto. Qed.
Lemma top_parent : forall c x, In c (tops F) -> In x c -> parent (nd a x) = None.
Proof. intros. destruct (r_tops _ _ R c H) as (_ & D & _). eapply dseg_parent; eauto. Qed.
Lemma kid_unique : forall p q x, In x (kidsf F p) -> In x (kidsf F q) -> p = q.
Proof. intros p q x H1 H2. apply kid_parent in H1, H2. congruence. Qed.
Lemma kid_not_top : forall p c x, In x (kidsf F p) -> In c (tops F) -> ~ In x c.
Proof. intros p c x H1 H2 H3. apply kid_parent in H1. eapply top_parent in H3; eauto. congruence. Qed.

Lemma sibs_dseg : forall o L, sibs F o L -> dseg a o None L None /\ NoDup L.
Proof.
  intros [p|] L H; cbn in H.
  - subst L. apply (r_kids _ _ R).
  - destruct (r_tops _ _ R L H) as (_ & D & N). auto.
Qed.
Lemma sibs_live : forall o L y, sibs F o L -> In y L -> live a y.
Proof. intros [p|] L y H Hy; cbn in H; [subst L; eapply kid_live | eapply top_live]; eauto. Qed.
Lemma sibs_parent : forall o L y, sibs F o L -> In y L -> parent (nd a y) = o.
Proof. intros o L y H Hy. destruct (sibs_dseg _ _ H) as [D _]. eapply dseg_parent; eauto. Qed.
Lemma sibs_of : forall x, live a x -> exists L, sibs F (parent (nd a x)) L /\ In x L.
Proof.
  intros x L. apply (r_live _ _ R) in L. destruct L as [[q H]|(c & Hc & H)].
  - rewrite (kid_parent _ _ H). exists (kidsf F q). split; [reflexivity | assumption].
  - rewrite (top_parent _ _ Hc H). exists c. split; assumption.
Qed.
Lemma sibs_split : forall x, live a x -> exists A B, sibs F (parent (nd a x)) (A ++ x :: B).
Proof. intros x L. destruct (sibs_of x L) as (S & HS & Hx). apply in_split in Hx. destruct Hx as (A & B & ->). eauto. Qed.
Lemma parent_kid : forall x p, live a x -> parent (nd a x) = Some p -> In x (kidsf F p).
Proof. intros x p L P. destruct (sibs_of _ L) as (S & HS & Hx). rewrite P in HS. cbn in HS. now subst S. Qed.
Lemma parent_top : forall x, live a x -> parent (nd a x) = None -> exists c, In c (tops F) /\ In x c.
Proof. intros x L P. destruct (sibs_of _ L) as (S & HS & Hx). rewrite P in HS. eauto. Qed.
Lemma sibs_owner_live : forall p L y, sibs F (Some p) L -> In y L -> live a p.
Proof. intros p L y H Hy. cbn in H; subst L. eapply owner_live; eauto. Qed.

Lemma sibs_unique : forall o o' L L' y, sibs F o L -> sibs F o' L' -> In y L -> In y L' -> o = o' /\ L = L'.
Proof.
  intros o o' L L' y H H' Hy Hy'.
  assert (E : o = o').
  { rewrite <- (sibs_parent _ _ _ H Hy). apply (sibs_parent _ _ _ H' Hy'). }
  subst o'. split; auto. destruct o as [p|]; cbn in H, H'; [congruence|].
  destruct (sibs_dseg None L H) as [D _]. destruct (sibs_dseg None L' H') as [D' _].
  apply in_split in Hy, Hy'. destruct Hy as (A1 & B1 & ->), Hy' as (A2 & B2 & ->).
  assert (EB : B1 = B2).
  { apply dseg_app in D, D'. destruct D as [_ D], D' as [_ D']. eapply dseg_suffix_eq; eauto. }
  assert (EA : A1 = A2).
  { change (y :: B1) with ([y] ++ B1) in D. change (y :: B2) with ([y] ++ B2) in D'.
    rewrite app_assoc in D, D'. apply dseg_app in D, D'. destruct D as [D _], D' as [D' _].
    eapply dseg_prefix_eq; eauto. }
  congruence.
Qed.

Lemma chain_unique : forall c1 c2 x, In c1 (tops F) -> In c2 (tops F) -> In x c1 -> In x c2 -> c1 = c2.
Proof. intros c1 c2 x H1 H2 X1 X2. apply (sibs_unique None None c1 c2 x); auto. Qed.

Lemma sibs_mid : forall o A x B, sibs F o (A ++ x :: B) ->
  prev (nd a x) = last_error A /\ next (nd a x) = hd_error B.
Proof.
  intros o A x B H. destruct (sibs_dseg _ _ H) as [D _]. apply dseg_mid in D.
  destruct D as [-> ->]. split; [destruct (last_error A) | destruct (hd_error B)]; reflexivity.
Qed.

Lemma sibs_NoDup_idx : forall o L, sibs F o L -> NoDup (map idx L).
Proof.
  intros o L H. apply (live_NoDup_idx a); [apply (sibs_dseg _ _ H) | intros; eapply sibs_live; eauto].
Qed.

Lemma ends_of : forall p, live a p ->
  first (nd a p) = hd_error (kidsf F p) /\ last (nd a p) = last_error (kidsf F p).
Proof. intros p L. apply (r_ends _ _ R p (nd a p) L). apply at_nd. now apply live_inr. Qed.

(* the five links of a node, read off the forest *)
Lemma links_of : forall o A x B g, sibs F o (A ++ x :: B) ->
  getf g (nd a x) = match g with
                    | Fparent => o | Fprev => last_error A | Fnext => hd_error B
                    | Ffirst => hd_error (kidsf F x) | Flast => last_error (kidsf F x)
                    end.
Proof.
  intros o A x B g H.
  assert (L : live a x) by (eapply sibs_live; eauto; apply in_elt).
  destruct g; cbn [getf].
  - eapply sibs_parent; eauto. apply in_elt.
  - apply (sibs_mid _ _ _ _ H).
  - apply (sibs_mid _ _ _ _ H).
  - apply (ends_of _ L).
  - apply (ends_of _ L).
Qed.

Lemma link_live : forall x g y, live a x -> getf g (nd a x) = Some y -> live a y.
Proof.
  intros x g y L H. destruct (sibs_split _ L) as (A & B & HS). rewrite (links_of _ _ _ _ g HS) in H.
  destruct g.
  - rewrite H in HS. eapply sibs_owner_live; eauto. apply in_elt.
  - apply last_error_In in H. eapply sibs_live; eauto. apply in_or_app. now left.
  - apply hd_error_In in H. eapply sibs_live; eauto. apply in_or_app. right. now right.
  - apply hd_error_In in H. eapply kid_live; eauto.
  - apply last_error_In in H. eapply kid_live; eauto.
Qed.

Lemma link_inr : forall x g, live a x -> oinr a (getf g (nd a x)).
Proof.
  intros x g L. destruct (getf g (nd a x)) as [y|] eqn:E; cbn; auto.
  apply live_inr. eapply link_live; eauto.
Qed.

Lemma dead_links : forall x g, slot_removed a x -> getf g (nd a x) = None.
Proof.
  intros x g H. apply slot_removed_stamp in H. destruct H as [I S].
  destruct (r_dead _ _ R (idx x) (nd a x)) as (E1 & E2 & E3 & E4 & E5); auto.
  - now apply at_nd.
  - destruct g; auto.
Qed.

Lemma depth_fun : forall x d, depthF F x d -> forall d', depthF F x d' -> d = d'.
Proof.
  induction 1 as [x c Hc Hx | x p d Hx Hp IH]; intros d' H'; inversion H' as [? c' Hc' Hx' | ? p' e Hx' Hp']; subst; auto.
  - exfalso. eapply kid_not_top; eauto.
  - exfalso. eapply kid_not_top; eauto.
  - f_equal. apply IH. now rewrite (kid_unique _ _ _ Hx Hx').
Qed.

Lemma depth_kid_inv : forall x p d, In x (kidsf F p) -> depthF F x d -> exists d', d = S d' /\ depthF F p d'.
Proof.
  intros x p d Hx H. inversion H as [? c Hc Hx' | ? p' e Hx' Hp']; subst.
  - exfalso. eapply kid_not_top; eauto.
  - rewrite (kid_unique _ _ _ Hx Hx'). eauto.
Qed.

Lemma member_depth : forall x, live a x -> exists d, depthF F x d.
Proof. intros x L. apply (r_depth _ _ R). now apply (r_live _ _ R). Qed.

Lemma anc_depth : forall x y, ancF F x y -> forall d, depthF F x d ->
  exists e, depthF F y e /\ e <= d /\ (e = d -> x = y).
Proof.
  induction 1 as [x | x p y Hx Hp IH]; intros d Hd.
  - exists d. auto.
  - destruct (depth_kid_inv _ _ _ Hx Hd) as (d' & -> & Hd').
    destruct (IH _ Hd') as (e & He & Le & _). exists e. repeat split; auto; lia.
Qed.

Lemma anc_live : forall y x, ancF F y x -> live a x -> live a y.
Proof. induction 1; intros; auto. eapply kid_live; eauto. Qed.

Lemma anc_antisym : forall x y, ancF F x y -> ancF F y x -> x = y.
Proof.
  intros x y H1 H2. inversion H1 as [|? p ? Hp _]; subst; auto.
  destruct (member_depth x) as [d Hd]; [eapply kid_live; eauto|].
  destruct (anc_depth _ _ H1 _ Hd) as (e & He & Le & Eq).
  destruct (anc_depth _ _ H2 _ He) as (d' & Hd' & Le' & _).
  rewrite (depth_fun _ _ Hd' _ Hd) in Le'. apply Eq. lia.
Qed.

Lemma kid_not_anc : forall x p, In x (kidsf F p) -> ~ ancF F p x.
Proof.
  intros x p Hx H. assert (E : x = p). { apply anc_antisym; auto. eapply anc_step; eauto. constructor. }
  subst p. destruct (member_depth x) as [d Hd]. { eapply kid_live; eauto. }
  destruct (depth_kid_inv _ _ _ Hx Hd) as (d' & -> & Hd'). pose proof (depth_fun _ _ Hd _ Hd'). lia.
Qed.

Lemma anc_step_inv : forall x p y, In x (kidsf F p) -> ancF F x y -> x = y \/ ancF F p y.
Proof.
  intros x p y Hx H. inversion H as [|? q ? Hq Hy]; subst; auto.
  right. now rewrite (kid_unique _ _ _ Hx Hq).
Qed.

Lemma anc_root_inv : forall x y, parent (nd a x) = None -> ancF F x y -> x = y.
Proof.
  intros x y P H. inversion H as [|? q ? Hq Hy]; subst; auto.
  apply kid_parent in Hq. congruence.
Qed.

(* x and its ancestors are d+1 distinct live nodes, so depths stay below the number of slots *)
Lemma depth_path : forall x d, depthF F x d ->
  exists P, length P = S d /\ NoDup P /\ forall y, In y P -> live a y /\ ancF F x y.
Proof.
  induction 1 as [x c Hc Hx | x p d Hx Hp IH].
  - exists [x]. split; [reflexivity|]. split; [repeat constructor; intros []|].
    intros y [<-|[]]. split; [eapply top_live; eauto | constructor].
  - destruct IH as (P & LP & ND & HP). exists (x :: P). split; [cbn; lia|]. split.
    + constructor; auto. intros Hi. exact (kid_not_anc _ _ Hx (proj2 (HP _ Hi))).
    + intros y [<-|Hy]; [split; [eapply kid_live; eauto | constructor]|].
      destruct (HP _ Hy). split; auto. eapply anc_step; eauto.
Qed.

Lemma depth_bound : forall x d, depthF F x d -> d < length (nodes a).
Proof.
  intros x d H. destruct (depth_path _ _ H) as (P & LP & ND & HP).
  assert (length P <= length (nodes a)). { apply live_list_bound; auto. intros; now apply HP. }
  lia.
Qed.

Lemma anc_any_none : forall fuel c, anc_any fuel None c a = Ok false.
Proof. intros [|f] c; reflexivity. Qed.

Lemma anc_any_spec : forall fuel x c d, live a x -> depthF F x d -> d < fuel ->
  exists b, anc_any fuel (Some x) c a = Ok b /\ (b = true <-> ancF F x c).
Proof.
  induction fuel as [|fuel IH]; intros x c d L Hd Lt; [lia|].
  cbn [anc_any]. unfold rbind, rrdi, rrd. rewrite (at_nd _ _ (live_inr _ _ L)).
  destruct (nid_eqb c x) eqn:E.
  - apply nid_eqb_eq in E. subst c. exists true. split; auto. split; auto. intros _. constructor.
  - apply nid_eqb_false in E. destruct (parent (nd a x)) as [p|] eqn:P.
    + pose proof (parent_kid _ _ L P) as Hx.
      destruct (depth_kid_inv _ _ _ Hx Hd) as (d' & -> & Hd').
      destruct (IH p c d') as (b & Hb & Eb); [eapply owner_live; eauto | auto | lia |].
      exists b. split; auto. rewrite Eb. split.
      * intros H. eapply anc_step; eauto.
      * intros H. destruct (anc_step_inv _ _ _ Hx H); auto; congruence.
    + exists false. split; [apply anc_any_none|]. split; [discriminate|].
      intros H. apply anc_root_inv in H; auto; congruence.
Qed.

Lemma anc_any_repr : forall x c, live a x ->
  exists b, anc_any (chain_fuel a) (Some x) c a = Ok b /\ (b = true <-> ancF F x c).
Proof.
  intros x c L. destruct (member_depth _ L) as [d Hd]. eapply anc_any_spec; eauto.
  pose proof (depth_bound _ _ Hd). unfold chain_fuel. lia.
Qed.

Lemma anc_any_parent_repr : forall x c, live a x ->
  exists b, anc_any (chain_fuel a) (parent (nd a x)) c a = Ok b
            /\ (b = true <-> exists p, In x (kidsf F p) /\ ancF F p c).
Proof.
  intros x c L. destruct (parent (nd a x)) as [p|] eqn:P.
  - pose proof (parent_kid _ _ L P) as Hx.
    destruct (anc_any_repr p c) as (b & Hb & Eb); [eapply owner_live; eauto|].
    exists b. split; auto. rewrite Eb. split; [eauto|].
    intros (q & Hq & H). now rewrite (kid_unique _ _ _ Hx Hq).
  - exists false. split; [apply anc_any_none|]. split; [discriminate|].
    intros (q & Hq & _). apply kid_parent in Hq. congruence.
Qed.

End ReprFacts.

Lemma kids_not_live : forall a F x, Repr a F -> ~ live a x -> kidsf F x = [].
Proof.
  intros a F x R NL. destruct (kidsf F x) eqn:E; auto. exfalso. apply NL, (r_owner _ _ R).
  rewrite E. discriminate.
Qed.

Lemma is_ancestor_or_self_eq : forall x c a,
  is_ancestor_or_self x c a = (a, anc_any (chain_fuel a) (Some x) c a).
Proof. reflexivity. Qed.
Lemma is_strict_ancestor_eq : forall x c a, inr a x ->
  is_strict_ancestor x c a = (a, anc_any (chain_fuel a) (parent (nd a x)) c a).
Proof.
  intros. unfold is_strict_ancestor, get_arena, bind. rewrite rdi_ok by auto. reflexivity.
Qed.

Lemma node_ext : forall n m : node,
  (forall g, getf g n = getf g m) -> stamp n = stamp m -> data n = data m -> n = m.
Proof.
  intros [] [] H; cbn; intros -> ->.
  generalize (H Fparent) (H Fprev) (H Fnext) (H Ffirst) (H Flast). cbn. now intros -> -> -> -> ->.
Qed.

Lemma Repr_links_unique : forall a a' F x, Repr a F -> Repr a' F -> live a x ->
  forall g, getf g (nd a x) = getf g (nd a' x).
Proof.
  intros a a' F x R R' L g. destruct (sibs_split a F R x L) as (A & B & HS).
  now rewrite (links_of a F R _ _ _ _ g HS), (links_of a' F R' _ _ _ _ g HS).
Qed.

Lemma Repr_unique : forall a a' F, Repr a F -> Repr a' F -> same_shape a a' -> a' = a.
Proof.
  intros a a' F R R' (LEN & FF & LF & SH). apply arena_ext; auto. intros i.
  destruct (nth_error (nodes a) i) as [n|] eqn:E.
  - destruct (SH i n E) as (n' & E' & S' & D'). rewrite E'. f_equal.
    apply node_ext; auto. intros g.
    set (x := mkId i (stamp n)). rewrite <- (nd_at a x n E), <- (nd_at a' x n' E').
    destruct (Z_lt_ge_dec (stamp n) 0) as [Neg|Pos].
    + rewrite (dead_links a F R x g), (dead_links a' F R' x g); auto; [exists n' | exists n]; split; auto; lia.
    + symmetry. apply (Repr_links_unique a a' F x R R'). exists n. repeat split; auto. cbn. lia.
  - apply nth_error_None in E. apply nth_error_None. lia.
Qed.

Lemma live_same_shape1 : forall a a' x, same_shape a a' -> live a x -> live a' x.
Proof.
  intros a a' x (_ & _ & _ & SH) (n & E & S & G). destruct (SH _ _ E) as (n' & E' & S' & _).
  exists n'. repeat split; auto. congruence.
Qed.
Lemma live_same_shape : forall a a' x, same_shape a a' -> (live a x <-> live a' x).
Proof. intros. split; apply live_same_shape1; auto using same_shape_sym. Qed.
Lemma slot_removed_same_shape1 : forall a a' x, same_shape a a' -> slot_removed a x -> slot_removed a' x.
Proof.
  intros a a' x (_ & _ & _ & SH) (n & E & S). destruct (SH _ _ E) as (n' & E' & S' & _).
  exists n'. split; auto. congruence.
Qed.
Lemma slot_removed_same_shape : forall a a' x, same_shape a a' -> (slot_removed a x <-> slot_removed a' x).
Proof. intros. split; apply slot_removed_same_shape1; auto using same_shape_sym. Qed.
