(* C13 — Arenas are plain values: deterministic, cloneable, and clear() means fresh (partial).
   In a functional model determinism and clone-independence hold by construction ([run] is a
   function of the arena value; a clone IS the value) — what carries weight here is: (a) nothing but
   the arena value influences what a call does or returns, (b) after clear() every continuation
   behaves exactly as on a new arena (same arenas, same ids, same outcomes), (c) the capacity
   guarantees, for an arbitrary Vec growth policy with grow c n >= n.  Hidden state in the
   implementation (globals, address-dependent behaviour) can only be excluded by the correspondence
   runs (replay twice, fork/swap histories, clear-vs-new). *)
From IT Require Import Value.
From IT.proofs Require Import ValueProofs.

Theorem C13_function_of_arena : forall dbg w1 w2 o, ar w1 = ar w2 ->
  ar (fst (step dbg w1 o)) = ar (fst (step dbg w2 o)) /\ snd (step dbg w1 o) = snd (step dbg w2 o).
Proof. exact step_ar_only. Qed.

Theorem C13_clear_is_fresh : forall dbg w ops,
  ar (run dbg ops (fst (step dbg w OClear))) = ar (run dbg ops init) /\
  outcomes dbg ops (fst (step dbg w OClear)) = outcomes dbg ops init.
Proof. exact clear_is_fresh. Qed.

Theorem C13_reserve_changes_nothing : forall dbg w k,
  fst (step dbg w (OReserve k)) = w /\ snd (step dbg w (OReserve k)) = OutUnit.
Proof. exact reserve_changes_nothing. Qed.

Theorem C13_capacity : forall (grow : nat -> nat -> nat), (forall c n, (n <= grow c n)%nat) ->
  (forall n, (n <= cap (v_with_capacity grow n))%nat /\ va (v_with_capacity grow n) = empty_arena) /\
  (forall k v, cap_ok v -> (length (nodes (va v)) + k <= cap (v_reserve grow k v))%nat /\ va (v_reserve grow k v) = va v) /\
  (forall v, cap (v_clear v) = cap v /\ va (v_clear v) = empty_arena) /\
  (forall dbg v w o, va v = ar w -> cap_ok v -> cap_ok (v_step grow dbg v w o) /\ (cap v <= cap (v_step grow dbg v w o))%nat).
Proof.
  intros grow Hg. split; [|split; [|split]].
  - intros n. apply (with_capacity_ok grow Hg n).
  - intros k v _. destruct (reserve_ok grow Hg k v) as (A & B & _). split; assumption.
  - intros v. apply clear_keeps_capacity.
  - intros dbg v w o E H. apply (step_cap_ok grow Hg dbg v w o E H).
Qed.

Print Assumptions C13_function_of_arena.
Print Assumptions C13_clear_is_fresh.
Print Assumptions C13_reserve_changes_nothing.
Print Assumptions C13_capacity.
