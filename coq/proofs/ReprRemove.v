(* ReprRemove.v — remove and remove_subtree refine the abstract forest operations [f_remove] and
   [f_remove_subtree] (release semantics).  remove is detach, then the children of the detached node are
   moved into its old place ([ReprInsert.move_refines]), then its slot is freed; remove_subtree is detach,
   then the pre-order of the detached root is freed slot by slot.  The arenas between these stages are
   exposed ([remove_stages], [remove_subtree_stages]) because the debug-build proofs need them. *)
From IT Require Import Forest.
From IT.proofs Require Import ReprBase ReprTree ReprInsert.
From IT.proofs Require AllocProofs.
From Coq Require Import Lia.
Local Open Scope nat_scope.

(* free_node writes through last_free_slot; the refinement statements need only that it is in range
   ([Assembly.FreeOK_lfree_ok] derives it from the allocation invariant) *)
Definition lfree_ok (a : arena) : Prop :=
  match lfree a with Some i => (i < length (nodes a))%nat | None => True end.

Lemma same_shape_lfree_ok : forall a a1, same_shape a a1 -> lfree_ok a -> lfree_ok a1.
Proof. intros a a1 (L & _ & E & _) H. unfold lfree_ok in *. now rewrite E, L. Qed.

Lemma lfree_ok_lt : forall a l, lfree_ok a -> lfree a = Some l -> l < length (nodes a).
Proof. intros a l H E. unfold lfree_ok in H. now rewrite E in H. Qed.

(* [same_links] unfolds to AllocProofs.same_links, so AllocProofs.same_links_refl / _trans apply to it *)
Definition same_links (n n' : node) : Prop :=
  parent n' = parent n /\ prev n' = prev n /\ next n' = next n /\ first n' = first n /\ last n' = last n.
Definition all_none (n : node) : Prop :=
  parent n = None /\ prev n = None /\ next n = None /\ first n = None /\ last n = None.

(* slot-wise relation: same number of slots, each slot related by P *)
Definition slotrel (P : nat -> node -> node -> Prop) (a a' : arena) : Prop :=
  length (nodes a') = length (nodes a) /\
  forall i n, nth_error (nodes a) i = Some n -> exists n', nth_error (nodes a') i = Some n' /\ P i n n'.

Lemma slotrel_trans : forall (P Q R : nat -> node -> node -> Prop) a b c,
  (forall i n m k, P i n m -> Q i m k -> R i n k) ->
  slotrel P a b -> slotrel Q b c -> slotrel R a c.
Proof.
  intros P Q R a b c H [L1 H1] [L2 H2]. split; [congruence|].
  intros i n Hn. destruct (H1 i n Hn) as (m & Hm & Pm). destruct (H2 i m Hm) as (k & Hk & Qk). eauto.
Qed.

(* what free_node x does to slot i: links untouched everywhere, the stamp of x's slot turns negative *)
Definition freed1 (x : nid) (i : nat) (n n' : node) : Prop :=
  same_links n n' /\
  (if Nat.eqb i (idx x) then (0 <= stamp n -> stamp n' < 0)%Z else stamp n' = stamp n).

Lemma same_links_set_data : forall d n, same_links n (set_data d n).
Proof. intros; repeat split. Qed.
Lemma same_links_set_stamp : forall s n, same_links n (set_stamp s n).
Proof. intros; repeat split. Qed.

(* A debug build also asserts that the free list is empty at its front if it is at its back; the arena and the
   payload afterwards do not depend on the build. *)
Lemma free_node_exec : forall b x n, nth_error (nodes b) (idx x) = Some n -> (0 <= stamp n)%Z -> lfree_ok b ->
  exists b' old,
    (forall dbg, (dbg = true -> lfree b = None -> ffree b = None) -> free_node dbg x b = (b', Ok old)) /\
    lfree_ok b' /\ (lfree b' = None -> lfree b = None /\ ffree b' = ffree b) /\ slotrel (freed1 x) b b'.
Proof.
  intros b x n Hn Hs Hl. exists (AllocProofs.freed b x n). eexists.
  destruct (AllocProofs.freed_slots b x n Hn) as [Len SL].
  split; [intros dbg Hd; apply (AllocProofs.free_node_eq dbg b x n Hn Hs); [intros l; now apply lfree_ok_lt | exact Hd]|].
  split; [|split; [apply AllocProofs.freed_ends|split; [exact Len|]]].
  - unfold lfree_ok. destruct (lfree (AllocProofs.freed b x n)) as [l|] eqn:E; [|exact I]. rewrite Len.
    destruct (proj2 (AllocProofs.freed_ends b x n) l E) as [->|E']; [|now apply lfree_ok_lt].
    apply nth_error_Some. congruence.
  - intros i m Hm. destruct (SL i m Hm) as (m' & Hm' & K & St). exists m'. split; [exact Hm'|]. split; [exact K|].
    rewrite St. destruct (Nat.eqb_spec i (idx x)) as [->|N]; [|reflexivity].
    intros _. apply AllocProofs.retire_range. rewrite Hn in Hm. now injection Hm as <-.
Qed.

Lemma lfree_ok_amap : forall G a, lfree_ok a -> lfree_ok (amap G a).
Proof. intros G a H. unfold lfree_ok in *. now rewrite lfree_amap, length_amap. Qed.

(* free_all steps on: after y is freed and its links are cleared, the slots of the rest of D are still alive *)
Lemma freed_rest : forall b b1 y D, slotrel (freed1 y) b b1 -> ~ In (idx y) (map idx D) ->
  (forall z, In z D -> exists n, nth_error (nodes b) (idx z) = Some n /\ (0 <= stamp n)%Z) ->
  forall z, In z D -> exists n,
    nth_error (nodes (amap (fun j m => if Nat.eqb j (idx y) then clear_links m else m) b1)) (idx z) = Some n /\
    (0 <= stamp n)%Z.
Proof.
  intros b b1 y D [_ S1] Hny Hin z Hz. destruct (Hin z Hz) as (m & Hm & Hsm).
  destruct (S1 _ _ Hm) as (m1 & Hm1 & _ & St).
  assert (NE : Nat.eqb (idx z) (idx y) = false).
  { apply Nat.eqb_neq. intros E. apply Hny. rewrite <- E. now apply in_map. }
  rewrite NE in St. eexists. rewrite nth_amap, Hm1, NE. split; [reflexivity|congruence].
Qed.

(* the effect of freeing (and clearing) the slots of D, slot by slot *)
Definition pruned1 (D : list nid) (i : nat) (n n' : node) : Prop :=
  (In i (map idx D) /\ all_none n' /\ (0 <= stamp n -> stamp n' < 0)%Z) \/
  (~ In i (map idx D) /\ same_links n n' /\ stamp n' = stamp n).

Lemma free_all_exec : forall D b, NoDup (map idx D) ->
  (forall y, In y D -> exists n, nth_error (nodes b) (idx y) = Some n /\ (0 <= stamp n)%Z) -> lfree_ok b ->
  exists b' olds,
    (forall dbg, (dbg = true -> lfree b = None -> ffree b = None) -> free_all dbg D b = (b', Ok olds)) /\
    lfree_ok b' /\ slotrel (pruned1 D) b b'.
Proof.
  induction D as [|y D IH]; intros b Hnd Hin Hl.
  - exists b, []. split; [reflexivity|]. split; auto. split; auto.
    intros i n Hn. exists n. split; auto. right. split; [intros []|]. split; [apply AllocProofs.same_links_refl | reflexivity].
  - destruct (Hin y (or_introl eq_refl)) as (n & En & Hs).
    destruct (free_node_exec b y n En Hs Hl) as (b1 & old & E1 & L1 & HE & [Len1 S1]).
    destruct (S1 _ _ En) as (n1 & En1 & Hn1).
    set (G := fun j m => if Nat.eqb j (idx y) then clear_links m else m).
    inversion Hnd as [|? ? Hny Hnd']; subst.
    destruct (IH (amap G b1)) as (b' & olds & E2 & L2 & [Len2 S2]); auto.
    { apply (freed_rest b b1 y D (conj Len1 S1) Hny). intros z Hz. apply Hin. now right. }
    { now apply lfree_ok_amap. }
    eexists _, _. split; [|split; [exact L2|split; [rewrite Len2, length_amap; exact Len1|]]].
    { intros dbg Hd. cbn [free_all]. rewrite (bind_ok _ _ _ _ _ _ _ (E1 dbg Hd)).
      erewrite bind_ok by (unfold updi; eapply upd_ok; eauto).
      erewrite bind_ok by (apply E2; intros Ed H0; destruct (HE H0) as [H1 H2]; change (ffree b1 = None); rewrite H2; auto). reflexivity. }
    intros i m Hm. destruct (S1 i m Hm) as (m1 & Hm1 & [Lk1 St1]).
    destruct (S2 i (G i m1)) as (m' & Hm' & P2); [rewrite nth_amap, Hm1; reflexivity|].
    exists m'. split; auto. unfold G in P2. cbn [map In].
    destruct (Nat.eqb i (idx y)) eqn:E.
    + apply Nat.eqb_eq in E. subst i. left. split; [now left|].
      destruct P2 as [(Hi & _)|(_ & Lk2 & St2)]; [contradiction|].
      destruct Lk2 as (A1 & A2 & A3 & A4 & A5). cbn in A1, A2, A3, A4, A5, St2.
      split; [repeat split; auto|]. rewrite St2. auto.
    + apply Nat.eqb_neq in E.
      destruct P2 as [(Hi & Hall & St2)|(Hi & Lk2 & St2)].
      * left. split; [now right|]. split; auto. rewrite St1 in St2. auto.
      * right. split; [intros [?|?]; [lia|contradiction]|]. split; [eapply AllocProofs.same_links_trans; eauto | congruence].
Qed.

(* Freeing the slots of the pre-order D of a lone root x, as [pruned1 D] describes it slot by slot, leaves an
   arena that represents the forest without D. *)
Section Prune.
Variables (a a' : arena) (K : nid -> list nid) (T : list (list nid)) (x : nid).
Let F1 := mkForest K ([x] :: T).
Hypothesis HR : Repr a F1.
Hypothesis HxT : forall c, In c T -> ~ In x c.
Let D := preorderF (length (nodes a)) F1 x.
Hypothesis HP : slotrel (pruned1 D) a a'.
Let F' := mkForest (fun p => if nid_in p D then [] else K p) T.

Lemma prune_Lx : live a x.
Proof. apply (r_live a F1 HR). right. exists [x]. split; now left. Qed.

Lemma prune_D_anc : forall y, In y D <-> ancF F1 y x.
Proof.
  intros y. split.
  - intros H. eapply preorder_anc; eauto.
  - intros H. apply preorder_complete; auto using prune_Lx.
Qed.

Lemma prune_x_not_kid : forall p, ~ In x (K p).
Proof. intros p H. eapply (kid_not_top a F1 HR p [x] x); eauto; now left. Qed.

Lemma prune_D_kid : forall y p, In y (K p) -> (In y D <-> In p D).
Proof.
  intros y p H. rewrite !prune_D_anc. split; intros Ha.
  - inversion Ha as [|? q ? Hq Hb]; subst.
    + exfalso. eapply prune_x_not_kid; eauto.
    + assert (q = p) by (eapply (kid_unique a F1 HR); eauto). now subst.
  - eapply anc_step; eauto.
Qed.

Lemma prune_D_top : forall c y, In c T -> In y c -> ~ In y D.
Proof.
  intros c y Hc Hy H. apply prune_D_anc in H. inversion H as [|? q ? Hq Hb]; subst.
  - eapply HxT; eauto.
  - eapply (kid_not_top a F1 HR q c y); eauto. now right.
Qed.

Lemma prune_D_live : forall y, In y D -> live a y.
Proof. intros y H. apply prune_D_anc in H. eapply (anc_live a F1); eauto using prune_Lx. Qed.

Lemma prune_idx_D : forall y, live a y -> (In (idx y) (map idx D) <-> In y D).
Proof.
  intros y Ly. split.
  - intros H. apply in_map_iff in H. destruct H as (z & E & Hz).
    assert (z = y) by (apply (live_inj a); auto using prune_D_live). now subst.
  - apply in_map.
Qed.

Lemma prune_live_after : forall y, live a' y <-> live a y /\ ~ In y D.
Proof.
  intros y. destruct HP as [Len HS]. split.
  - intros (n' & Hn' & St & Hg). unfold node_at in Hn'.
    destruct (nth_error (nodes a) (idx y)) as [n|] eqn:En.
    2:{ apply nth_error_None in En. assert (idx y < length (nodes a')) by (apply nth_error_Some; congruence). lia. }
    destruct (HS _ _ En) as (n2 & Hn2 & P). rewrite Hn' in Hn2. inversion Hn2; subst n2.
    destruct P as [(Hi & _ & Hneg)|(Hi & _ & Hst)].
    + exfalso. apply in_map_iff in Hi. destruct Hi as (z & E & Hz).
      destruct (prune_D_live z Hz) as (m & Hm & Sm & Gm). unfold node_at in Hm. rewrite E, En in Hm.
      inversion Hm; subst m. lia.
    + assert (Ly : live a y) by (exists n; repeat split; auto; congruence).
      split; auto. intros H. apply Hi. now apply in_map.
  - intros [(n & Hn & St & Hg) Hy].
    assert (Ly : live a y) by (exists n; auto).
    destruct (HS _ _ Hn) as (n' & Hn' & [(Hi & _)|(_ & _ & Hst)]).
    + exfalso. apply Hy. now apply prune_idx_D.
    + exists n'. repeat split; auto. congruence.
Qed.

Lemma prune_node_after : forall y n, live a y -> ~ In y D -> node_at a y n ->
  exists n', node_at a' y n' /\ same_links n n'.
Proof.
  intros y n Ly Hy Hn. destruct HP as [_ HS]. destruct (HS _ _ Hn) as (n' & Hn' & [(Hi & _)|(_ & Lk & _)]).
  - exfalso. apply Hy. now apply prune_idx_D.
  - eauto.
Qed.

Lemma prune_dseg_after : forall o xs pv nx, (forall y, In y xs -> live a y /\ ~ In y D) ->
  dseg a o pv xs nx -> dseg a' o pv xs nx.
Proof.
  intros o xs pv nx H. apply dseg_transfer. intros y n Hy Hn. destruct (H y Hy) as [Ly Hd].
  destruct (prune_node_after y n Ly Hd Hn) as (n' & Hn' & L1 & L2 & L3 & _). eauto.
Qed.

Lemma prune_member_after : forall y, memberF F' y <-> memberF F1 y /\ ~ In y D.
Proof.
  intros y. split.
  - intros [(p & Hp)|(c & Hc & Hy)].
    + cbn [kidsf F'] in Hp. destruct (nid_in p D) eqn:E; [contradiction|]. apply nid_in_false in E.
      split; [left; eauto|]. now rewrite (prune_D_kid y p Hp).
    + cbn [tops F'] in Hc. split; [right; exists c; split; auto; now right|]. eapply prune_D_top; eauto.
  - intros [[(p & Hp)|(c & Hc & Hy)] Hd].
    + left. exists p. cbn [kidsf F']. cbn [kidsf F1] in Hp.
      rewrite (prune_D_kid y p Hp) in Hd. apply nid_in_false in Hd. now rewrite Hd.
    + right. exists c. split; auto. cbn [tops F']. destruct Hc as [<-|Hc]; auto.
      exfalso. destruct Hy as [<-|[]]. apply Hd. apply prune_D_anc. constructor.
Qed.

Lemma prune_depth_after : forall y d, depthF F1 y d -> ~ In y D -> depthF F' y d.
Proof.
  induction 1 as [y c Hc Hy | y p d Hp Hd IH]; intros Hn.
  - destruct Hc as [<-|Hc].
    + exfalso. destruct Hy as [<-|[]]. apply Hn. apply prune_D_anc. constructor.
    + apply depth_top with c; auto.
  - cbn [kidsf F1] in Hp. rewrite (prune_D_kid y p Hp) in Hn.
    apply depth_kid with p; auto. cbn [kidsf F']. apply nid_in_false in Hn. now rewrite Hn.
Qed.

Lemma prune_repr : Repr a' F'.
Proof.
  constructor.
  - intros y. rewrite prune_member_after, prune_live_after. now rewrite (r_live a F1 HR).
  - intros p. cbn [kidsf F']. destruct (nid_in p D) eqn:E; [split; [exact I | constructor]|].
    apply nid_in_false in E. destruct (r_kids a F1 HR p) as [Hd Hn]. cbn [kidsf F1] in Hd, Hn.
    split; auto. apply prune_dseg_after; auto. intros y Hy. split.
    + eapply (kid_live a F1 HR); eauto.
    + now rewrite (prune_D_kid y p Hy).
  - intros p. cbn [kidsf F']. destruct (nid_in p D) eqn:E; [congruence|]. apply nid_in_false in E.
    intros H. apply prune_live_after. split; auto. apply (r_owner a F1 HR). auto.
  - intros c Hc. cbn [tops F'] in Hc. destruct (r_tops a F1 HR c) as (H1 & H2 & H3); [now right|].
    split; auto. split; auto. apply prune_dseg_after; auto. intros y Hy. split.
    + apply (r_live a F1 HR). right. exists c. split; auto. now right.
    + eapply prune_D_top; eauto.
  - intros p n' Lp Hn'. apply prune_live_after in Lp. destruct Lp as [Lp Hd].
    destruct Lp as (n & Hn & Hs & Hg). assert (Lp : live a p) by (exists n; auto).
    destruct (prune_node_after p n Lp Hd Hn) as (n2 & Hn2 & _ & _ & _ & L4 & L5).
    unfold node_at in *. rewrite Hn' in Hn2. inversion Hn2; subst n2.
    destruct (r_ends a F1 HR p n Lp Hn) as [E1 E2]. cbn [kidsf F1] in E1, E2.
    cbn [kidsf F']. apply nid_in_false in Hd. rewrite Hd. split; congruence.
  - intros y Hy. apply prune_member_after in Hy. destruct Hy as [Hm Hd].
    destruct (r_depth a F1 HR y Hm) as (d & Hdep). exists d. now apply prune_depth_after.
  - intros i n' Hn' Hneg. destruct HP as [Len HS].
    destruct (nth_error (nodes a) i) as [n|] eqn:En.
    2:{ apply nth_error_None in En. assert (i < length (nodes a')) by (apply nth_error_Some; congruence). lia. }
    destruct (HS _ _ En) as (n2 & Hn2 & P). rewrite Hn' in Hn2. inversion Hn2; subst n2.
    destruct P as [(_ & Hall & _)|(_ & (L1 & L2 & L3 & L4 & L5) & Hst)]; auto.
    rewrite L1, L2, L3, L4, L5. apply (r_dead a F1 HR i n En). lia.
Qed.
End Prune.

Lemma free_node_repr : forall a1 K T x,
  Repr a1 (mkForest K ([x] :: T)) -> (forall c, In c T -> ~ In x c) -> K x = [] -> lfree_ok a1 ->
  exists a' old, free_node false x a1 = (a', Ok old) /\ Repr a' (mkForest K T) /\
                 length (nodes a') = length (nodes a1).
Proof.
  intros a1 K T x HR HxT HK Hl.
  assert (HT : In [x] (tops (mkForest K ([x] :: T)))) by (now left).
  assert (Lx : live a1 x) by (eapply top_live; eauto; now left).
  pose proof (at_nd _ _ (live_inr _ _ Lx)) as Hn.
  destruct (sibs_mid a1 _ HR None [] x [] HT) as [P2 P3].
  pose proof (top_parent a1 _ HR [x] x HT (or_introl eq_refl)) as P1.
  destruct (ends_of a1 _ HR x Lx) as [P4 P5]. cbn [kidsf] in P4, P5. rewrite HK in P4, P5.
  assert (Hs : (0 <= stamp (nd a1 x))%Z) by (destruct (live_stamp _ _ Lx) as [-> G]; exact G).
  destruct (free_node_exec a1 x _ Hn Hs Hl) as (a' & old & E & _ & _ & [Len HS]).
  exists a', old. split; [now apply E|]. split; auto.
  assert (ED : preorderF (length (nodes a1)) (mkForest K ([x] :: T)) x = [x]).
  { pose proof (live_inr _ _ Lx) as Hr. unfold inr in Hr. destruct (length (nodes a1)); [lia|].
    cbn [preorderF kidsf]. now rewrite HK. }
  pose proof (prune_repr a1 a' K T x HR HxT) as HPr. rewrite ED in HPr.
  eapply Repr_ext; [|apply HPr].
  - split; [|reflexivity]. intros p. cbn [kidsf]. destruct (nid_in p [x]) eqn:Ep; auto.
    apply nid_in_In in Ep. destruct Ep as [<-|[]]. now rewrite HK.
  - split; auto. intros i m Hm. destruct (HS i m Hm) as (m' & Hm' & Lk & St).
    exists m'. split; auto. cbn [map In].
    destruct (Nat.eqb i (idx x)) eqn:Ei.
    + apply Nat.eqb_eq in Ei. subst i. left. split; [now left|].
      rewrite Hn in Hm. inversion Hm; subst m.
      split; auto. destruct Lk as (L1 & L2 & L3 & L4 & L5). cbn [hd_error last_error] in P2, P3, P4, P5.
      repeat split; congruence.
    + apply Nat.eqb_neq in Ei. right. split; [intros [?|[]]; lia|]. split; auto.
Qed.

Lemma preorder_detach : forall a F x, Repr a F ->
  forall f y, ancF F y x -> preorderF f (f_detach x F) y = preorderF f F y.
Proof.
  intros a F x HR. induction f as [|f IH]; intros y Ha; [reflexivity|].
  cbn [preorderF]. f_equal.
  assert (E : kidsf (f_detach x F) y = kidsf F y).
  { cbn [kidsf f_detach]. apply remove_id_notin. intros H. now apply (kid_not_anc a F HR x y). }
  rewrite E. apply flat_map_ext_in. intros k Hk. apply IH. eapply anc_step; eauto.
Qed.

(* the node before whatever follows xs, pv being the node before xs *)
Definition olast (xs : list nid) (pv : option nid) : option nid :=
  match last_error xs with Some z => Some z | None => pv end.
Lemma olast_nonempty : forall xs pv, xs <> [] -> olast xs pv = last_error xs.
Proof. intros [|x r] pv H; [congruence|]. reflexivity. Qed.

(* where x sits: its sibling run is A ++ x :: B, owned by its parent field *)
Lemma position : forall a F x n, Repr a F -> live a x -> node_at a x n ->
  exists A B, ~ In x A /\ ~ In x B /\ NoDup (A ++ x :: B) /\
              prev n = last_error A /\ next n = hd_error B /\
              match parent n with
              | Some p => kidsf F p = A ++ x :: B
              | None => In (A ++ x :: B) (tops F)
              end.
Proof.
  intros a F x n HR Lx Hn. apply nd_at in Hn. subst n.
  destruct (sibs_split a F HR x Lx) as (A & B & HS).
  destruct (sibs_dseg a F HR _ _ HS) as [_ N]. destruct (NoDup_mid _ _ _ N) as (NA & NB & _).
  destruct (sibs_mid a F HR _ _ _ _ HS) as [V X].
  exists A, B. repeat split; auto.
Qed.

(* the forest between the splice and the final free_node: x is still there, a childless lone root *)
Definition spliced (x : nid) (F : forest) : forest :=
  mkForest (kidsf (f_remove x F)) ([x] :: tops (f_remove x F)).

Lemma splice_gap : forall a F x o A B a1 f S',
  Repr a F -> sibs F o (A ++ x :: B) -> kidsf F x = f :: S' -> same_shape a a1 ->
  sibs (f_detach x F) (Some x) (f :: S') /\
  move_ok a1 (f_detach x F) (Some x) (f :: S') o A B (spliced x F).
Proof.
  intros a F x o A B a1 f S' R HS EK Sh. set (C := A ++ x :: B) in *. set (S := f :: S') in *.
  destruct (sibs_dseg a F R _ _ HS) as [_ N]. destruct (NoDup_mid _ _ _ N) as (NA & NB & _).
  assert (IC : In x C) by (apply in_elt).
  assert (U : forall o' L, sibs F o' L -> In x L -> o' = o /\ L = C).
  { intros o' L H I. exact (sibs_unique a F R _ _ _ _ _ H HS I IC). }
  assert (NK : ~ In x (kidsf F x)) by (intros H; apply (kid_not_anc a F R x x H); constructor).
  assert (NS : forall s, In s S -> ~ In s (A ++ B)).
  { intros s Hs I. assert (I' : In s C) by (apply in_app_or in I; apply in_or_app; destruct I; [now left | right; now right]).
    assert (H0 : sibs F (Some x) S) by exact EK.
    destruct (sibs_unique a F R _ _ _ _ _ H0 HS Hs I') as [_ E]. apply NK. rewrite EK, E. exact IC. }
  assert (RC : remove_id x C = A ++ B) by (now apply remove_id_mid).
  assert (SC : subst_id x S C = A ++ S ++ B) by (now apply subst_id_mid).
  split; [cbn; rewrite EK; now apply remove_id_notin; rewrite <- EK|].
  split; [|split; [exact NS|split]].
  - destruct o as [p|]; cbn in HS.
    + split; [cbn; now rewrite HS|]. split.
      * apply (live_same_shape1 a); auto. eapply owner_live; eauto. rewrite HS. exact IC.
      * intros s Hs H. apply anc_detach in H.
        assert (Hx : ancF F p x) by (eapply anc_trans; [exact H | apply anc_kid; now rewrite EK]).
        apply (kid_not_anc a F R x p); auto. now rewrite HS.
    + destruct (A ++ B) eqn:E; [now left|]. right. rewrite <- RC. cbn [f_detach tops]. right.
      apply in_nonempty_map. exists C. rewrite RC. repeat split; auto. discriminate.
  - intros q. cbn [spliced kidsf f_remove f_detach onid_eqb]. rewrite EK, (nid_eqb_sym x q).
    destruct (nid_eqb q x); auto. destruct (onid_eqb o (Some q)) eqn:E.
    + apply onid_eqb_eq in E. rewrite E in HS. cbn in HS. now rewrite HS.
    + assert (NI : ~ In x (kidsf F q)).
      { intros I. apply onid_eqb_false in E. apply E. symmetry. now apply (U (Some q) (kidsf F q)). }
      now rewrite subst_id_notin, remove_id_notin.
  - intros ch. cbn [spliced tops f_remove f_detach In]. rewrite EK. fold S.
    assert (K : forall ch0, In ch0 (tops F) -> (o = None /\ ch0 = C) \/ (~ In x ch0 /\ ch0 <> A ++ B)).
    { intros ch0 H0. destruct (in_dec nid_eq_dec x ch0) as [I|NI]; [left; destruct (U None ch0 H0 I); auto|].
      right. split; auto. intros ->. destruct (r_tops _ _ R _ H0) as (NE & _).
      destruct (A ++ B) as [|z r] eqn:E; [congruence|].
      assert (Iz : In z C) by (assert (I : In z (A ++ B)) by (rewrite E; now left);
                               apply in_app_or in I; apply in_or_app; destruct I; [now left | right; now right]).
      assert (Ho : sibs F o C) by exact HS.
      destruct (sibs_unique a F R None o (z :: r) C z H0 Ho (or_introl eq_refl) Iz) as [_ E2].
      apply NI. rewrite E2. exact IC. }
    split.
    + intros [<-|H].
      * right. split; [now left|]. split; [discriminate|]. intros _ E.
        assert (I : In x (A ++ B)) by (rewrite <- E; now left). apply in_app_or in I. tauto.
      * apply in_nonempty_map in H. destruct H as (ch0 & H0 & <- & NE).
        destruct (K ch0 H0) as [[Eo ->]|[NI NAB]].
        -- left. now rewrite SC.
        -- right. rewrite subst_id_notin in * by auto. split; [|split; [discriminate | auto]].
           right. apply in_nonempty_map. exists ch0. rewrite remove_id_notin; auto.
    + intros [[Eo ->]|(H & _ & NAB)].
      * right. apply in_nonempty_map. exists C. rewrite Eo in HS.
        repeat split; auto. unfold S. destruct A; discriminate.
      * destruct H as [<-|H]; [now left|]. right.
        apply in_nonempty_map in H. destruct H as (ch0 & H0 & <- & NE).
        destruct (K ch0 H0) as [[Eo ->]|[NI _]].
        -- exfalso. apply (NAB Eo). exact RC.
        -- rewrite remove_id_notin in * by auto. apply in_nonempty_map. exists ch0.
           rewrite subst_id_notin; auto.
Qed.

Theorem remove_stages : forall a F x, Repr a F -> live a x ->
  exists o A B a1,
    sibs F o (A ++ x :: B) /\
    detach false x a = (a1, Ok tt) /\ Repr a1 (f_detach x F) /\ same_shape a a1 /\
    match kidsf F x with
    | [] => True
    | f :: S' => sibs (f_detach x F) (Some x) (f :: S') /\
                 move_ok a1 (f_detach x F) (Some x) (f :: S') o A B (spliced x F)
    end.
Proof.
  intros a F x R Lx. destruct (sibs_split a F R x Lx) as (A & B & HS).
  destruct (detach_refines a F x R Lx) as (a1 & E1 & R1 & Sh1).
  exists (parent (nd a x)), A, B, a1. repeat (split; [assumption|]).
  destruct (kidsf F x) as [|f S'] eqn:EK; [exact I|]. eapply splice_gap; eauto.
Qed.

(* a1 is the arena right before the final free_node (what the allocation proofs start from) *)
Theorem remove_refines : forall a F x, Repr a F -> live a x -> lfree_ok a ->
  exists a1 a' old, same_shape a a1 /\ free_node false x a1 = (a', Ok old) /\
                    remove false x a = (a', Ok old) /\ Repr a' (f_remove x F).
Proof.
  intros a F x R Lx Hl.
  destruct (remove_stages a F x R Lx) as (o & A & B & a1 & HS & E1 & R1 & Sh1 & REST).
  destruct (sibs_mid a F R _ _ _ _ HS) as [Pv Px].
  assert (Po : parent (nd a x) = o) by (eapply sibs_parent; eauto; apply in_elt).
  destruct (ends_of a F R x Lx) as [Pf Pl].
  (* the call up to the splice, and its tail from free_node on *)
  assert (Hpre : remove false x a =
     ((match hd_error (kidsf F x), last_error (kidsf F x) with
       | Some f, Some l =>
           detach_from_siblings false f l ;;;
           r <- transplant false f l o (last_error A) (hd_error B) ;; expect r
       | _, _ => ret tt
       end ;;;
       old <- free_node false x ;; n' <- rdi x ;; dassert false (node_is_detached n') ;;; ret old)%mon a1)).
  { unfold remove. cbn [when_dbg]. rewrite bind_ret, bind_rdi by (now apply live_inr).
    rewrite Pf, Pl, Po, Pv, Px.
    assert (Eb : Bool.eqb (is_some (hd_error (kidsf F x))) (is_some (last_error (kidsf F x))) = true)
      by (destruct (kidsf F x); reflexivity).
    rewrite Eb, bind_ret. now rewrite (bind_ok _ _ _ _ _ _ _ E1). }
  assert (Htail : forall b b' old, free_node false x b = (b', Ok old) ->
            length (nodes b') = length (nodes a) ->
            (old <- free_node false x ;; n' <- rdi x ;; dassert false (node_is_detached n') ;;; ret old)%mon b
            = (b', Ok old)).
  { intros b b' old E Len. rewrite (bind_ok _ _ _ _ _ _ _ E).
    rewrite bind_rdi; [reflexivity|]. unfold inr. rewrite Len. now apply live_inr. }
  rewrite Hpre. destruct (kidsf F x) as [|f S'] eqn:EK.
  - cbn [hd_error last_error]. rewrite bind_ret.
    destruct (free_node_repr a1 (kidsf (f_detach x F)) (filter nonempty (map (remove_id x) (tops F))) x)
      as (a' & old & E2 & R2 & Len2); auto.
    + apply detach_tops_no_x.
    + cbn [kidsf f_detach]. now rewrite EK.
    + eapply same_shape_lfree_ok; eauto.
    + exists a1, a', old. split; [auto|]. split; [auto|]. split.
      * apply Htail; auto. rewrite Len2. apply Sh1.
      * eapply Repr_ext; [|exact R2]. split.
        -- intros p. cbn [kidsf f_detach f_remove]. rewrite EK, subst_nil_remove.
           destruct (nid_eqb p x) eqn:Ep; auto. apply nid_eqb_eq in Ep. subst p. now rewrite EK.
        -- intros c. cbn [tops f_remove]. rewrite EK.
           now rewrite (map_ext (subst_id x []) (remove_id x)) by (intros; apply subst_nil_remove).
  - destruct REST as [HS1 OK].
    destruct (move_refines a1 _ (Some x) f S' o A B _ R1 HS1 OK) as (E3 & R3 & Sh3).
    cbv zeta in E3, R3, Sh3. set (a3 := amap _ _) in *.
    cbn [hd_error last_error]. rewrite (bind_ok _ _ _ _ _ _ _ E3).
    destruct (free_node_repr a3 (kidsf (f_remove x F)) (tops (f_remove x F)) x R3)
      as (a' & old & E4 & R4 & Len4).
    + intros c Hc Hx. cbn [tops f_remove] in Hc. apply in_nonempty_map in Hc.
      destruct Hc as (c0 & _ & <- & _). apply in_subst_id in Hx.
      destruct Hx as [[_ Hx]|[_ Hx]]; [congruence|].
      apply (kid_not_anc a F R x x Hx). constructor.
    + cbn [kidsf f_remove]. now rewrite nid_eqb_refl.
    + eapply same_shape_lfree_ok; [|exact Hl]. eapply same_shape_trans; eauto.
    + exists a3, a', old. split; [eapply same_shape_trans; eauto|]. split; [auto|]. split; [|exact R4].
      apply Htail; auto. rewrite Len4. destruct Sh3 as (L3 & _). destruct Sh1 as (L1 & _). congruence.
Qed.

Theorem remove_subtree_stages : forall a F x, Repr a F -> live a x ->
  let D := preorderF (length (nodes a)) F x in
  exists a1, detach false x a = (a1, Ok tt) /\ Repr a1 (f_detach x F) /\ same_shape a a1 /\
             descendants x a1 = Ok D /\ NoDup (map idx D) /\ (forall y, In y D -> live a1 y).
Proof.
  intros a F x HR Lx D.
  destruct (detach_refines a F x HR Lx) as (a1 & E1 & R1 & Sh).
  assert (Len : length (nodes a1) = length (nodes a)) by apply Sh.
  assert (Lx1 : live a1 x) by (apply (top_live a1 _ R1 [x] x); now left).
  assert (ED : preorderF (length (nodes a1)) (f_detach x F) x = D).
  { rewrite Len. apply (preorder_detach a F x HR). constructor. }
  destruct (repr_tree a1 _ x R1 Lx1) as ((_ & Hnd) & _ & Hids & Hall).
  rewrite Hids, ED in Hnd. rewrite Hids, ED in Hall.
  exists a1. split; [auto|]. split; [auto|]. split; [auto|]. split; [|split; [auto|]].
  - now rewrite (repr_descendants a1 _ x R1 Lx1), ED.
  - intros y Hy. now apply Hall.
Qed.

Theorem remove_subtree_refines : forall a F x, Repr a F -> live a x -> lfree_ok a ->
  let D := preorderF (length (nodes a)) F x in
  exists a1 a' olds, same_shape a a1 /\ NoDup (map idx D) /\ (forall y, In y D -> live a1 y) /\
                     free_all false D a1 = (a', Ok olds) /\
                     remove_subtree false x a = (a', Ok (D, olds)) /\
                     Repr a' (f_remove_subtree x D F).
Proof.
  intros a F x HR Lx Hl D.
  destruct (remove_subtree_stages a F x HR Lx) as (a1 & E1 & R1 & Sh & ED & Hnd & Hall). fold D in ED, Hnd, Hall.
  destruct (free_all_exec D a1 Hnd) as (a' & olds & E2 & _ & HS).
  { intros y Hy. pose proof (Hall y Hy) as Ly. exists (nd a1 y). split; [apply at_nd, live_inr, Ly|].
    destruct (live_stamp _ _ Ly) as [-> G]. exact G. }
  { eapply same_shape_lfree_ok; eauto. }
  specialize (E2 false ltac:(discriminate)).
  exists a1, a', olds. split; [auto|]. split; [auto|]. split; [auto|]. split; [auto|]. split.
  - unfold remove_subtree. rewrite (bind_ok _ _ _ _ _ _ _ E1).
    erewrite bind_ok by (unfold lift; rewrite ED; reflexivity).
    now rewrite (bind_ok _ _ _ _ _ _ _ E2).
  - pose proof (prune_repr a1 a' (kidsf (f_detach x F)) (filter nonempty (map (remove_id x) (tops F))) x
                  R1 (detach_tops_no_x x F)) as HPr.
    replace (preorderF (length (nodes a1)) _ x) with D in HPr.
    + apply HPr. exact HS.
    + destruct Sh as (-> & _). symmetry. apply (preorder_detach a F x HR). constructor.
Qed.

Print Assumptions remove_refines.
Print Assumptions remove_subtree_refines.
