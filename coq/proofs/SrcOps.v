(* SrcOps.v — gen/GenOps.v (id.rs: detach, the eight inserts, append_value, remove, remove_subtree;
   re-translated on every run) is the model's NodeOps.v.  Ghost results (dropped payloads, removed ids)
   of the model are discarded with then_ret. *)
From IT.proofs Require Import Layer1 SrcTac SrcStamp SrcRel SrcAlloc AllocProofs.
From IT.gen Require Import GenStamp GenRel GenAlloc GenOps.
Open Scope mon_scope.

(* Slots do not go away: the release build of the model reads a node at two places where the translated
   code reads it only under debug_assertions; the read succeeds because the node was read before and the
   statements in between keep the number of slots. *)
Definition keeps_length {A} (m : M A) : Prop := forall a a' r, m a = (a', r) -> length (nodes a') = length (nodes a).

Lemma kl_ro {A} (m : M A) : read_only m -> keeps_length m.
Proof. intros R a a' r H. specialize (R a). rewrite H in R. cbn in R. now subst a'. Qed.
Lemma kl_shape {A} (m : M A) : shape_pres m -> keeps_length m.
Proof. intros S a a' r H. apply (S _ _ _ H). Qed.
Lemma kl_upd i f : keeps_length (upd i f).
Proof.
  intros a a' r. unfold upd. destruct (nth_error (nodes a) i); intros [= <- _]; [apply length_list_set|reflexivity].
Qed.
Lemma kl_bind {A B} (m : M A) (k : A -> M B) : keeps_length m -> (forall x, keeps_length (k x)) -> keeps_length (bind m k).
Proof.
  intros Hm Hk a a' r. unfold bind. destruct (m a) as [a1 [x| |]] eqn:E; intros H.
  - rewrite (Hk _ _ _ _ H). eapply Hm, E.
  - injection H as <- _. eapply Hm, E.
  - injection H as <- _. eapply Hm, E.
Qed.

Lemma slot_kept {A} (m : M A) i a a' r n :
  keeps_length m -> rd i a = (a, Ok n) -> m a = (a', r) -> exists n', rd i a' = (a', Ok n').
Proof.
  intros K R H. apply K in H. unfold rd in *.
  destruct (nth_error (nodes a') i) as [n'|] eqn:E; [eauto|].
  apply nth_error_None in E. rewrite H in E. apply nth_error_None in E. rewrite E in R. discriminate.
Qed.

Lemma read_first {A} i (k : node -> M A) a a' r : bind (rd i) k a = (a', Ok r) -> exists n, rd i a = (a, Ok n).
Proof. unfold bind, rd. destruct (nth_error (nodes a) i); [eauto|discriminate]. Qed.

Lemma free_node_keeps_length dbg x : keeps_length (free_node dbg x).
Proof.
  unfold free_node, rdi, updi, dassert.
  apply kl_bind; [apply kl_ro, ro_rd|intros n].
  apply kl_bind; [apply kl_upd|intros _].
  apply kl_bind; [apply kl_ro, ro_liftres|intros s'].
  apply kl_bind; [apply kl_upd|intros _].
  apply kl_bind; [apply kl_ro, ro_liftres|intros b].
  apply kl_bind; [|intros _; apply kl_ro, ro_ret].
  destruct b; [|apply kl_ro, ro_ret].
  intros a. change (bind get_arena ?k a) with (k a a). cbv beta.
  destruct (lfree a).
  - apply kl_bind; [apply kl_upd|intros _]. intros a0 a1 r [= <- _]. reflexivity.
  - apply kl_bind; [apply kl_ro; auto with ro nocore|intros _]. intros a0 a1 r [= <- _]. reflexivity.
Qed.

Lemma free_node_keeps_slot dbg x a a' r : free_node dbg x a = (a', Ok r) -> exists n, rd (idx x) a' = (a', Ok n).
Proof.
  intros H. destruct (read_first _ _ _ _ _ H) as [n Hn]. exact (slot_kept _ _ _ _ _ _ (free_node_keeps_length _ _) Hn H).
Qed.

Lemma detach_keeps_slot dbg x a a1 a2 r1 r2 :
  detach_from_siblings dbg x x a = (a1, Ok r1) -> rewrite_parents x None a1 = (a2, r2) ->
  exists n, rd (idx x) a2 = (a2, Ok n).
Proof.
  intros H1 H2. destruct (read_first _ _ _ _ _ H1) as [n Hn].
  destruct (slot_kept _ _ _ _ _ _ (kl_shape _ (shape_detach_from_siblings _ _ _)) Hn H1) as [n1 Hn1].
  exact (slot_kept _ _ _ _ _ _ (kl_shape _ (shape_rewrite_parents _ _)) Hn1 H2).
Qed.

Lemma src_detach dbg x a : g_NodeId_detach dbg x a = detach dbg x a.
Proof.
  unfold g_NodeId_detach, detach. lockstep.
  (* the model reads the node in both build profiles, the translated code only under debug_assertions *)
  match goal with
  | H1 : detach_from_siblings _ _ _ _ = _, H2 : rewrite_parents _ _ _ = _ |- _ =>
      destruct (detach_keeps_slot _ _ _ _ _ _ _ H1 H2) as [n Hn]
  end.
  destruct dbg; lockstep.
Qed.
#[export] Hint Resolve src_detach : src.

Lemma src_checked_append dbg x c a : g_NodeId_checked_append dbg x c a = checked_append dbg x c a.
Proof. unfold g_NodeId_checked_append, checked_append, either_removed, is_ancestor_or_self; lockstep. Qed.

Lemma src_checked_prepend dbg x c a : g_NodeId_checked_prepend dbg x c a = checked_prepend dbg x c a.
Proof. unfold g_NodeId_checked_prepend, checked_prepend, either_removed, is_ancestor_or_self; lockstep. Qed.

Lemma src_checked_insert_after dbg x c a : g_NodeId_checked_insert_after dbg x c a = checked_insert_after dbg x c a.
Proof. unfold g_NodeId_checked_insert_after, checked_insert_after, either_removed, is_strict_ancestor; lockstep. Qed.

Lemma src_checked_insert_before dbg x c a : g_NodeId_checked_insert_before dbg x c a = checked_insert_before dbg x c a.
Proof. unfold g_NodeId_checked_insert_before, checked_insert_before, either_removed, is_strict_ancestor; lockstep. Qed.
#[export] Hint Resolve src_checked_append src_checked_prepend src_checked_insert_after src_checked_insert_before : src.

Lemma src_append dbg x c a : g_NodeId_append dbg x c a = append dbg x c a.
Proof. unfold g_NodeId_append, append. lockstep. Qed.
Lemma src_prepend dbg x c a : g_NodeId_prepend dbg x c a = prepend dbg x c a.
Proof. unfold g_NodeId_prepend, prepend. lockstep. Qed.
Lemma src_insert_after dbg x c a : g_NodeId_insert_after dbg x c a = insert_after dbg x c a.
Proof. unfold g_NodeId_insert_after, insert_after. lockstep. Qed.
Lemma src_insert_before dbg x c a : g_NodeId_insert_before dbg x c a = insert_before dbg x c a.
Proof. unfold g_NodeId_insert_before, insert_before. lockstep. Qed.

Lemma src_append_value dbg x v a : g_NodeId_append_value dbg x v a = append_value dbg x v a.
Proof.
  unfold g_NodeId_append_value, g_NodeId_append_new_node_unchecked, append_value. lockstep.
Qed.

Lemma src_remove dbg x a : g_NodeId_remove dbg x a = then_ret (remove dbg x) tt a.
Proof.
  unfold g_NodeId_remove, remove. lockstep.
  (* the four debug assertions at the head of the translated code are one block in the model *)
  do 3 lhs (eq_sym (bind_assoc _ _ _ _ _ _ _)). lockstep.
  (* the model reads the node once more in both build profiles, the translated code only under debug_assertions *)
  match goal with H : free_node _ _ _ = _ |- _ => destruct (free_node_keeps_slot _ _ _ _ _ H) as [n Hn] end.
  destruct dbg; lockstep.
Qed.

(* the model clears the links in one write *)
Lemma upd_clear_links {B} i (k : unit -> M B) a :
  bind (upd i clear_links) k a =
  bind (upd i (setf Fparent None)) (fun _ => bind (upd i (setf Fprev None)) (fun _ => bind (upd i (setf Fnext None))
    (fun _ => bind (upd i (setf Ffirst None)) (fun _ => bind (upd i (setf Flast None)) k)))) a.
Proof. rewrite <- !upd_split. reflexivity. Qed.

(* a loop whose body frees a node and clears its links is free_all, up to the payloads it collects *)
Lemma mfor_free_all dbg ids (F : nid -> M unit) a :
  (forall id a', F id a' = then_ret (free_node dbg id ;;; updi id clear_links) tt a') ->
  mfor ids F a = then_ret (free_all dbg ids) tt a.
Proof.
  intros HF. revert a. induction ids as [|id rest IH]; intros a; [reflexivity|].
  cbn [mfor free_all]. lockstep. rewrite IH. lockstep.
Qed.

Lemma src_remove_subtree dbg x a : g_NodeId_remove_subtree dbg x a = then_ret (remove_subtree dbg x) tt a.
Proof.
  unfold g_NodeId_remove_subtree, remove_subtree. lockstep.
  lhs (bind_head _ _ _ _ (mfor_free_all dbg _ _ _ _)).
  { intros id b. lockstep. rhs (upd_clear_links _ _ _). lockstep. }
  lockstep.
Qed.
