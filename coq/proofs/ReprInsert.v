(* ReprInsert.v — detach and the eight insert entry points refine the abstract forest operations
   [f_detach] and [f_insert] (release semantics).  In between, [Section Move]: the one lemma about
   transplanting a complete sibling list into a gap, which the inserts, append_value (Assembly.v), the
   splice of remove (ReprRemove.v) and their debug-build counterparts (DebugProofs.v) all instantiate. *)
From IT Require Import NodeOps Forest.
From IT.proofs Require Import Layer1 ReprBase.
Require Import Lia.
Local Open Scope nat_scope.

Lemma tops_rest : forall c F ch1, In ch1 (filter nonempty (map (remove_id c) (tops F))) <->
  exists ch0, In ch0 (tops F) /\ ch1 = remove_id c ch0 /\ ch1 <> [].
Proof.
  intros. rewrite filter_In, in_map_iff. split.
  - intros [(ch0 & <- & H0) NE]. exists ch0. split; [exact H0|]. split; [reflexivity|]. intros E. now rewrite E in NE.
  - intros (ch0 & H0 & -> & NE). split; [now exists ch0|]. destruct (remove_id c ch0); [congruence | reflexivity].
Qed.

Lemma tops_detach : forall x F ch, In ch (tops (f_detach x F)) <->
  ch = [x] \/ (ch <> [] /\ exists c0, In c0 (tops F) /\ ch = remove_id x c0).
Proof.
  intros. cbn [f_detach tops In]. rewrite tops_rest. split.
  - intros [<-|(c0 & H0 & -> & NE)]; eauto.
  - intros [->|(NE & c0 & H0 & ->)]; eauto.
Qed.

Lemma member_detach : forall x F y, memberF F x -> (memberF (f_detach x F) y <-> memberF F y).
Proof.
  intros x F y Mx. split.
  - intros [[p H]|(ch & Hc & H)].
    + cbn in H. apply In_remove_id in H. left. exists p. tauto.
    + apply tops_detach in Hc. destruct Hc as [->|(_ & c0 & H0 & ->)].
      * destruct H as [<-|[]]. auto.
      * apply In_remove_id in H. right. exists c0. tauto.
  - intros M. destruct (nid_eq_dec y x) as [->|N].
    + right. exists [x]. split; [apply tops_detach|]; cbn; auto.
    + destruct M as [[p H]|(ch & Hc & H)].
      * left. exists p. cbn. apply In_remove_id. auto.
      * right. exists (remove_id x ch). assert (In y (remove_id x ch)) by (apply In_remove_id; auto).
        split; auto. apply tops_detach. right. split; eauto. intros E. rewrite E in H0. destruct H0.
Qed.

Lemma depth_detach : forall x F y d, depthF F y d -> exists d', depthF (f_detach x F) y d'.
Proof.
  intros x F y d H. induction H as [y ch Hc Hy | y p d Hy Hp IH];
    (destruct (nid_eq_dec y x) as [->|N];
     [exists 0; apply depth_top with (c := [x]); [apply tops_detach|]; cbn; auto|]).
  - exists 0. assert (In y (remove_id x ch)) by (apply In_remove_id; auto).
    apply depth_top with (c := remove_id x ch); auto.
    apply tops_detach. right. split; eauto. intros E. rewrite E in H. destruct H.
  - destruct IH as [d' IH]. exists (S d'). eapply depth_kid; eauto. cbn. apply In_remove_id. auto.
Qed.

Lemma anc_detach : forall x F y z, ancF (f_detach x F) y z -> ancF F y z.
Proof.
  intros x F y z H. induction H; [constructor|]. eapply anc_step; eauto.
  cbn in H. apply In_remove_id in H. tauto.
Qed.

Lemma detach_fields : forall a x y, inr a y ->
  let a' := amap (detachF a x) a in
  let o := parent (nd a x) in let pv := prev (nd a x) in let nx := next (nd a x) in
  parent (nd a' y) = (if Nat.eqb (idx y) (idx x) then None else parent (nd a y)) /\
  prev (nd a' y) = (if oat nx (idx y) then pv else if Nat.eqb (idx y) (idx x) then None else prev (nd a y)) /\
  next (nd a' y) = (if oat pv (idx y) then nx else if Nat.eqb (idx y) (idx x) then None else next (nd a y)) /\
  first (nd a' y) = (if oat o (idx y) then cn_first a o pv nx else first (nd a y)) /\
  last (nd a' y) = (if oat o (idx y) then cn_last a o pv nx else last (nd a y)).
Proof.
  intros a x y I. cbv zeta.
  repeat split;
    [ change (parent (nd (amap (detachF a x) a) y)) with (getf Fparent (nd (amap (detachF a x) a) y))
    | change (prev (nd (amap (detachF a x) a) y)) with (getf Fprev (nd (amap (detachF a x) a) y))
    | change (next (nd (amap (detachF a x) a) y)) with (getf Fnext (nd (amap (detachF a x) a) y))
    | change (first (nd (amap (detachF a x) a) y)) with (getf Ffirst (nd (amap (detachF a x) a) y))
    | change (last (nd (amap (detachF a x) a) y)) with (getf Flast (nd (amap (detachF a x) a) y)) ];
    rewrite getf_nd_amap by auto; unfold detachF; rewrite getf_comp, getf_fset, getf_dfsF; cbv zeta;
    cbn [fld_eqb getf]; rewrite ?andb_false_r, ?andb_true_r; reflexivity.
Qed.

Lemma detachF_other : forall a x j n,
  Nat.eqb j (idx x) = false -> oat (parent (nd a x)) j = false ->
  oat (prev (nd a x)) j = false -> oat (next (nd a x)) j = false -> detachF a x j n = n.
Proof.
  intros. unfold detachF, dfsF, comp. rewrite !fset_other by assumption. now rewrite cnF_other by assumption.
Qed.

Section Detach.
Variables (a : arena) (F : forest) (x : nid) (o : option nid) (A B : list nid).
Hypothesis R : Repr a F.
Hypothesis Lx : live a x.
Hypothesis HS : sibs F o (A ++ x :: B).

Let a' := amap (detachF a x) a.

Lemma dt_parent : parent (nd a x) = o.
Proof. eapply sibs_parent; eauto. apply in_or_app. right. now left. Qed.
Lemma dt_prev : prev (nd a x) = last_error A.
Proof. now destruct (sibs_mid a F R _ _ _ _ HS). Qed.
Lemma dt_next : next (nd a x) = hd_error B.
Proof. now destruct (sibs_mid a F R _ _ _ _ HS). Qed.
Lemma dt_nodup : ~ In x A /\ ~ In x B /\ NoDup (A ++ B).
Proof. destruct (sibs_dseg a F R _ _ HS) as [_ N]. now apply NoDup_mid. Qed.
Lemma dt_live : forall y, In y (A ++ x :: B) -> live a y.
Proof. intros. eapply sibs_live; eauto. Qed.
Lemma dt_live_A : forall y, In y A -> live a y.
Proof. intros. apply dt_live. apply in_or_app. now left. Qed.
Lemma dt_live_B : forall y, In y B -> live a y.
Proof. intros. apply dt_live. apply in_or_app. right. now right. Qed.
Lemma dt_live_o : forall p, o = Some p -> live a p.
Proof. intros p ->. eapply sibs_owner_live; eauto. apply in_or_app. right. now left. Qed.
Lemma dt_live_pv : forall v, last_error A = Some v -> live a v.
Proof. intros v H. apply dt_live_A. now apply last_error_In. Qed.
Lemma dt_live_nx : forall v, hd_error B = Some v -> live a v.
Proof. intros v H. apply dt_live_B. now apply hd_error_In. Qed.

(* the fields of a live node after the detach, by ids *)
Lemma dt_fields : forall y, live a y ->
  parent (nd a' y) = (if nid_eqb y x then None else parent (nd a y)) /\
  prev (nd a' y) = (if onid_eqb (hd_error B) (Some y) then last_error A
                    else if nid_eqb y x then None else prev (nd a y)) /\
  next (nd a' y) = (if onid_eqb (last_error A) (Some y) then hd_error B
                    else if nid_eqb y x then None else next (nd a y)) /\
  first (nd a' y) = (if onid_eqb o (Some y) then cn_first a o (last_error A) (hd_error B) else first (nd a y)) /\
  last (nd a' y) = (if onid_eqb o (Some y) then cn_last a o (last_error A) (hd_error B) else last (nd a y)).
Proof.
  intros y L. pose proof (detach_fields a x y (live_inr _ _ L)) as H. cbv zeta in H.
  rewrite dt_parent, dt_prev, dt_next in H.
  rewrite (oat_live a _ y L dt_live_pv), (oat_live a _ y L dt_live_nx), (oat_live a _ y L dt_live_o) in H.
  rewrite (live_idx_eqb a y x L Lx) in H. exact H.
Qed.

Lemma dt_exec : detach false x a = (a', Ok tt).
Proof.
  apply detach_ok.
  - now apply live_inr.
  - apply (link_inr a F R x Fparent Lx).
  - apply (link_inr a F R x Fprev Lx).
  - apply (link_inr a F R x Fnext Lx).
  - rewrite dt_prev. rewrite (oat_live a _ x Lx dt_live_pv).
    apply onid_eqb_false. intros E. apply last_error_In in E. now apply dt_nodup in E.
Qed.

Lemma dt_len : length (nodes a') = length (nodes a).
Proof. apply length_amap. Qed.

(* the list x is taken out of: around x only the link of A's last and of B's first element changes *)
Lemma dt_list_same : dseg a' o None (A ++ B) None.
Proof.
  destruct (sibs_dseg a F R _ _ HS) as [D N]. destruct dt_nodup as (NA & NB & NAB).
  apply dseg_app in D. destruct D as [DA DB]. cbn [hd_error or_else] in DA.
  apply dseg_cons in DB. destruct DB as (_ & _ & _ & _ & DB).
  assert (K : forall y, In y (A ++ B) -> nid_eqb y x = false).
  { intros y Hy. apply nid_eqb_neq. intros ->. apply in_app_or in Hy. tauto. }
  apply dseg_app. split.
  - eapply dseg_retail; [exact DA | eapply NoDup_app_left; eauto | apply dt_len |].
    intros y Hy. destruct (dt_fields y (dt_live_A _ Hy)) as (-> & -> & -> & _).
    rewrite (K y) by (apply in_or_app; now left).
    rewrite (proj2 (onid_eqb_false (hd_error B) (Some y)))
      by (intros E; apply hd_error_In in E; exact (NoDup_app_disj _ _ NAB y Hy E)).
    split; [exact (dseg_parent _ _ _ _ _ _ DA Hy)|]. split; [reflexivity|]. now destruct (hd_error B).
  - eapply dseg_rehead; [exact DB | eapply NoDup_app_right; eauto | apply dt_len |].
    intros y Hy. destruct (dt_fields y (dt_live_B _ Hy)) as (-> & -> & -> & _).
    rewrite (K y) by (apply in_or_app; now right).
    rewrite (proj2 (onid_eqb_false (last_error A) (Some y)))
      by (intros E; apply last_error_In in E; exact (NoDup_app_disj _ _ NAB y E Hy)).
    split; [exact (dseg_parent _ _ _ _ _ _ DB Hy)|]. split; [reflexivity|]. now destruct (last_error A).
Qed.

Lemma dt_disj : forall o' L' y, sibs F o' L' -> ~ In x L' -> In y L' -> ~ In y (A ++ x :: B).
Proof.
  intros o' L' y H NX Hy Hy'. destruct (sibs_unique a F R _ _ _ _ _ H HS Hy Hy') as [_ ->].
  apply NX. apply in_or_app. right. now left.
Qed.

Lemma dt_list_other : forall o' L', sibs F o' L' -> ~ In x L' -> dseg a' o' None L' None.
Proof.
  intros o' L' H NX. destruct (sibs_dseg a F R _ _ H) as [D _].
  eapply dseg_frame; [exact D | apply dt_len |].
  intros y Hy. pose proof (sibs_live a F R _ _ _ H Hy) as Ly.
  pose proof (dt_disj _ _ _ H NX Hy) as Ny.
  destruct (dt_fields y Ly) as (-> & -> & -> & _).
  assert (E1 : nid_eqb y x = false). { apply nid_eqb_neq. intros ->. contradiction. }
  assert (E2 : onid_eqb (hd_error B) (Some y) = false).
  { apply onid_eqb_false. intros E. apply hd_error_In in E. apply Ny. apply in_or_app. right. now right. }
  assert (E3 : onid_eqb (last_error A) (Some y) = false).
  { apply onid_eqb_false. intros E. apply last_error_In in E. apply Ny. apply in_or_app. now left. }
  now rewrite E1, E2, E3.
Qed.

Lemma dt_list : forall o' L', sibs F o' L' -> dseg a' o' None (remove_id x L') None.
Proof.
  intros o' L' H. destruct (in_dec nid_eq_dec x L') as [I|NI].
  - assert (Ix : In x (A ++ x :: B)) by (apply in_elt).
    destruct (sibs_unique a F R _ _ _ _ _ H HS I Ix) as [-> ->].
    destruct dt_nodup as (NA & NB & _). rewrite remove_id_mid by auto. apply dt_list_same.
  - rewrite remove_id_notin by auto. now apply dt_list_other.
Qed.

Lemma dt_ends : forall p, live a p ->
  first (nd a' p) = hd_error (remove_id x (kidsf F p)) /\ last (nd a' p) = last_error (remove_id x (kidsf F p)).
Proof.
  intros p Lp. destruct (dt_fields p Lp) as (_ & _ & _ & -> & ->).
  destruct (ends_of a F R p Lp) as [E1 E2].
  destruct (onid_eqb o (Some p)) eqn:E.
  - apply onid_eqb_eq in E. pose proof HS as HS'. rewrite E in HS' |- *. cbn in HS'.
    rewrite HS' in E1, E2 |- *.
    destruct dt_nodup as (NA & NB & _). rewrite remove_id_mid by auto.
    split; [apply cn_first_gap | apply cn_last_gap]; intros NE.
    + rewrite E1. now destruct A.
    + rewrite E2. destruct B; [congruence|]. now rewrite last_error_app, last_error_cons.
  - apply onid_eqb_false in E. rewrite remove_id_notin; auto.
    intros I. apply E. assert (Ix : In x (A ++ x :: B)) by (apply in_elt).
    assert (H : sibs F (Some p) (kidsf F p)) by reflexivity.
    now destruct (sibs_unique a F R _ _ _ _ _ HS H Ix I).
Qed.

Lemma dt_dead : forall i n', nth_error (nodes a') i = Some n' -> (stamp n' < 0)%Z ->
  parent n' = None /\ prev n' = None /\ next n' = None /\ first n' = None /\ last n' = None.
Proof.
  intros i n' E S. unfold a' in E. rewrite nth_amap in E.
  destruct (nth_error (nodes a) i) as [n|] eqn:En; [|discriminate]. cbn in E. inversion E; subst n'.
  destruct (links_only_detachF a x i n) as [St _]. rewrite St in S.
  rewrite detachF_other.
  - eapply (r_dead _ _ R); eauto.
  - apply (oat_dead a (Some x) i n En S). intros v Ev. inversion Ev; subst. exact Lx.
  - rewrite dt_parent. apply (oat_dead a _ i n En S dt_live_o).
  - rewrite dt_prev. apply (oat_dead a _ i n En S dt_live_pv).
  - rewrite dt_next. apply (oat_dead a _ i n En S dt_live_nx).
Qed.

Lemma dt_repr : Repr a' (f_detach x F).
Proof.
  assert (LO : links_only (detachF a x)) by apply links_only_detachF.
  assert (Mx : memberF F x) by (now apply (r_live _ _ R)).
  constructor.
  - intros y. rewrite member_detach by auto. rewrite (r_live _ _ R). unfold a'. now rewrite live_amap.
  - intros p. split.
    + apply (dt_list (Some p) (kidsf F p)). reflexivity.
    + apply NoDup_remove_id. apply (r_kids _ _ R).
  - intros p H. unfold a'. rewrite live_amap by auto. apply (r_owner _ _ R).
    intros E. apply H. cbn. now rewrite E.
  - intros ch H. apply tops_detach in H. destruct H as [->|(NE & c0 & H0 & ->)].
    + split; [discriminate|]. split; [|repeat constructor; auto].
      apply dseg_cons. destruct (dt_fields x Lx) as (-> & -> & -> & _).
      rewrite nid_eqb_refl. destruct dt_nodup as (NA & NB & _).
      rewrite !(proj2 (onid_eqb_false _ _)).
      * repeat split; auto. unfold a'. apply inr_amap. now apply live_inr.
      * intros E. apply last_error_In in E. contradiction.
      * intros E. apply hd_error_In in E. contradiction.
    + split; auto. split.
      * apply (dt_list None c0). exact H0.
      * apply NoDup_remove_id. now destruct (r_tops _ _ R c0 H0) as (_ & _ & N).
  - intros p n Lp Hn. unfold a' in Lp. rewrite live_amap in Lp by auto.
    apply node_at_nd in Hn. destruct Hn as [_ <-]. now apply dt_ends.
  - intros y My. apply member_detach in My; auto. destruct (r_depth _ _ R y My) as [d Hd].
    eapply depth_detach; eauto.
  - exact dt_dead.
Qed.
End Detach.

Theorem detach_refines : forall a F x, Repr a F -> live a x ->
  exists a', detach false x a = (a', Ok tt) /\ Repr a' (f_detach x F) /\ same_shape a a'.
Proof.
  intros a F x R Lx. destruct (sibs_split a F R x Lx) as (A & B & HS).
  exists (amap (detachF a x) a). split; [|split].
  - eapply dt_exec; eauto.
  - eapply dt_repr; eauto.
  - apply same_shape_amap. apply links_only_detachF.
Qed.

(* field values after transplanting the run S = f .. l into the gap (par, pv, nx) *)
Lemma transplant_fields : forall a S f l par pv nx y, inr a y ->
  let a1 := amap (cnF a par pv (Some f) ∘∘ reparentF S par) a in
  let a2 := amap (transplantF a S f l par pv nx) a in
  parent (nd a2 y) = (if existsb (Nat.eqb (idx y)) (map idx S) then par else parent (nd a y)) /\
  prev (nd a2 y) = (if oat nx (idx y) then Some l else if Nat.eqb (idx y) (idx f) then pv else prev (nd a y)) /\
  next (nd a2 y) = (if Nat.eqb (idx y) (idx l) then nx else if oat pv (idx y) then Some f else next (nd a y)) /\
  first (nd a2 y) = (if oat par (idx y) then cn_first a1 par (Some l) nx else first (nd a y)) /\
  last (nd a2 y) = (if oat par (idx y) then cn_last a1 par (Some l) nx else last (nd a y)).
Proof.
  intros a S f l par pv nx y I. cbv zeta.
  repeat split;
    [ change (parent ?n) with (getf Fparent n) at 1 | change (prev ?n) with (getf Fprev n) at 1
    | change (next ?n) with (getf Fnext n) at 1 | change (first ?n) with (getf Ffirst n) at 1
    | change (last ?n) with (getf Flast n) at 1 ];
    rewrite getf_nd_amap by auto; unfold transplantF; cbv zeta;
    rewrite getf_comp, getf_cnF, getf_comp, getf_cnF, getf_reparentF;
    cbn [fld_eqb getf oat]; rewrite ?andb_false_r, ?andb_true_r;
    try reflexivity; destruct (oat par (idx y)); reflexivity.
Qed.

Lemma transplant_par_ends : forall a S f p pv, inr a p ->
  let a1 := amap (cnF a (Some p) pv (Some f) ∘∘ reparentF S (Some p)) a in
  first (nd a1 p) = cn_first a (Some p) pv (Some f) /\ last (nd a1 p) = cn_last a (Some p) pv (Some f).
Proof.
  intros a S f p pv I. cbv zeta. split.
  - change (first ?n) with (getf Ffirst n) at 1. rewrite getf_nd_amap by auto.
    rewrite getf_comp, getf_cnF. cbn [oat fld_eqb]. now rewrite Nat.eqb_refl.
  - change (last ?n) with (getf Flast n) at 1. rewrite getf_nd_amap by auto.
    rewrite getf_comp, getf_cnF. cbn [oat fld_eqb]. now rewrite Nat.eqb_refl.
Qed.

Lemma transplantF_other : forall a S f l par pv nx j n,
  existsb (Nat.eqb j) (map idx S) = false -> Nat.eqb j (idx f) = false -> Nat.eqb j (idx l) = false ->
  oat par j = false -> oat pv j = false -> oat nx j = false ->
  transplantF a S f l par pv nx j n = n.
Proof.
  intros. unfold transplantF, comp. cbv zeta.
  rewrite reparentF_other by assumption. rewrite !cnF_other; auto.
Qed.

Lemma dfsF_other : forall a f l j n, Nat.eqb j (idx f) = false -> Nat.eqb j (idx l) = false ->
  oat (parent (nd a f)) j = false -> oat (prev (nd a f)) j = false -> oat (next (nd a l)) j = false ->
  dfsF a f l j n = n.
Proof. intros. unfold dfsF, comp. rewrite !fset_other by assumption. now rewrite cnF_other. Qed.

(* Moving a complete sibling list Sl = f :: S' (all children of src, or a whole top-level chain if src = None)
   into the gap between A and B under par, by detach_from_siblings f l followed by transplant f l par pv nx.
   The gap [HG] is in the child list of p, or in a top-level chain; [A ++ B = []] under no parent is the case in
   which the moved list becomes a chain of its own (remove of a parentless node without siblings: its children
   form a new chain); no moved node is an ancestor of the new parent, so the result is acyclic.  [HD]: the moved
   nodes are not in the gap's list.  F2 is the forest afterwards: src has lost its children and par has
   Mid = A ++ Sl ++ B [HK]; among the chains the moved one (if it was a chain) and the old A ++ B (if the gap was
   in a chain) are replaced by Mid [HT2].
   The lemmas are used from other files with the section hypotheses as explicit arguments, so a proof that
   destructs [par] first clears the hypotheses it does not need, or poses the section lemmas it needs before the
   destruct: otherwise every hypothesis that mentions [par] would become an argument of the closed lemma. *)
Section Move.
Variables (a : arena) (F : forest) (src : option nid) (f : nid) (S' : list nid).
Variables (par : option nid) (A B : list nid) (F2 : forest).
Let Sl := f :: S'.
Let l := List.last S' f.
Let pv := last_error A.
Let nx := hd_error B.
Let Mid := A ++ Sl ++ B.

Hypothesis R : Repr a F.
Hypothesis HS : sibs F src Sl.
Hypothesis HG : match par with
                | Some p => kidsf F p = A ++ B /\ live a p /\ (forall s, In s Sl -> ~ ancF F p s)
                | None => A ++ B = [] \/ In (A ++ B) (tops F)
                end.
Hypothesis HD : forall s, In s Sl -> ~ In s (A ++ B).
Hypothesis HK : forall q, kidsf F2 q =
  if onid_eqb src (Some q) then [] else if onid_eqb par (Some q) then Mid else kidsf F q.
Hypothesis HT2 : forall ch, In ch (tops F2) <->
  (par = None /\ ch = Mid) \/
  (In ch (tops F) /\ (src = None -> ch <> Sl) /\ (par = None -> ch <> A ++ B)).

Let a1 := amap (dfsF a f l) a.
Let a2 := amap (transplantF a1 Sl f l par pv nx) a1.

Lemma mv_f_in : In f Sl. Proof. now left. Qed.
Lemma mv_l_in : In l Sl. Proof. apply last_error_In. reflexivity. Qed.
Lemma mv_live_S : forall s, In s Sl -> live a s.
Proof. intros. eapply sibs_live; eauto. Qed.
Lemma mv_live_src : forall x, src = Some x -> live a x.
Proof. intros x E. rewrite E in HS. eapply sibs_owner_live; eauto using mv_f_in. Qed.
Lemma mv_gap : A ++ B = [] \/ sibs F par (A ++ B).
Proof. clear HK HT2 HD. destruct par as [p|]; cbn; [right; apply HG | exact HG]. Qed.
Lemma mv_live_AB : forall y, In y (A ++ B) -> live a y.
Proof.
  intros y H. destruct mv_gap as [E|G]; [rewrite E in H; destruct H|]. eapply sibs_live; eauto.
Qed.
Lemma mv_live_par : forall p, par = Some p -> live a p.
Proof. intros p E. rewrite E in HG. apply HG. Qed.
Lemma mv_live_pv : forall v, pv = Some v -> live a v.
Proof. intros v H. apply mv_live_AB. apply in_or_app. left. now apply last_error_In. Qed.
Lemma mv_live_nx : forall v, nx = Some v -> live a v.
Proof. intros v H. apply mv_live_AB. apply in_or_app. right. now apply hd_error_In. Qed.
Lemma mv_dAB : dseg a par None (A ++ B) None /\ NoDup (A ++ B).
Proof.
  destruct mv_gap as [E|G]; [rewrite E; split; [exact I | constructor]|]. eapply sibs_dseg; eauto.
Qed.
Lemma mv_par_notS : forall s, In s Sl -> par <> Some s.
Proof. intros s Hs E. rewrite E in HG. destruct HG as (_ & _ & H). apply (H s Hs). constructor. Qed.
Lemma mv_src_ne_par : forall x, src = Some x -> par <> Some x.
Proof.
  intros x E E'. rewrite E in HS. rewrite E' in HG. cbn in HS. destruct HG as (EK & _).
  apply (HD f mv_f_in). rewrite <- EK, HS. apply mv_f_in.
Qed.
Lemma mv_pv_notS : forall s, In s Sl -> pv <> Some s.
Proof. intros s Hs E. apply last_error_In in E. apply (HD s Hs). apply in_or_app. now left. Qed.
Lemma mv_nx_notS : forall s, In s Sl -> nx <> Some s.
Proof. intros s Hs E. apply hd_error_In in E. apply (HD s Hs). apply in_or_app. now right. Qed.
Lemma mv_dS : dseg a src None Sl None /\ NoDup Sl.
Proof. eapply sibs_dseg; eauto. Qed.
Lemma mv_f_fields : parent (nd a f) = src /\ prev (nd a f) = None.
Proof.
  destruct mv_dS as [D _]. split; [eapply dseg_parent; eauto using mv_f_in | eapply dseg_hd; eauto].
Qed.
Lemma mv_l_next : next (nd a l) = None.
Proof. destruct mv_dS as [D _]. eapply dseg_last; [exact D | reflexivity]. Qed.

Lemma mv_oinr : forall o, (forall v, o = Some v -> live a v) -> oinr a o.
Proof. intros [v|] H; cbn; auto. apply live_inr. auto. Qed.

(* after detach_from_siblings on the whole list only the owner's two ends have changed *)
Lemma mv_a1_field : forall g y, inr a y -> getf g (nd a1 y) =
  if oat src (idx y) && (fld_eqb Flast g || fld_eqb Ffirst g) then None else getf g (nd a y).
Proof.
  intros g y I. unfold a1. rewrite getf_nd_amap by auto. rewrite getf_dfsF. cbv zeta.
  destruct mv_f_fields as [-> ->]. rewrite mv_l_next. cbn [oat andb].
  assert (Kf : Nat.eqb (idx y) (idx f) = true -> prev (nd a y) = None).
  { intros E. apply Nat.eqb_eq in E. unfold nd. rewrite E. apply mv_f_fields. }
  assert (Kl : Nat.eqb (idx y) (idx l) = true -> next (nd a y) = None).
  { intros E. apply Nat.eqb_eq in E. unfold nd. rewrite E. apply mv_l_next. }
  destruct (oat src (idx y)), g; cbn [fld_eqb orb getf andb]; rewrite ?andb_false_r, ?andb_true_r;
    try reflexivity;
    try (destruct (Nat.eqb (idx y) (idx f)); [now rewrite Kf | reflexivity]);
    try (destruct (Nat.eqb (idx y) (idx l)); [now rewrite Kl | reflexivity]).
Qed.

Lemma mv_a1_links : forall y, inr a y ->
  parent (nd a1 y) = parent (nd a y) /\ prev (nd a1 y) = prev (nd a y) /\ next (nd a1 y) = next (nd a y).
Proof.
  intros y I. pose proof (mv_a1_field Fparent y I) as H1. pose proof (mv_a1_field Fprev y I) as H2.
  pose proof (mv_a1_field Fnext y I) as H3. cbn [fld_eqb orb getf] in *. rewrite andb_false_r in *. auto.
Qed.

Lemma mv_dfs : detach_from_siblings false f l a = (a1, Ok tt).
Proof.
  destruct mv_f_fields as [P V].
  apply dfs_ok; rewrite ?P, ?V, ?mv_l_next; cbn [oinr]; auto using live_inr, mv_live_S, mv_f_in, mv_l_in.
  apply mv_oinr, mv_live_src.
Qed.

(* what transplant needs to know about the run, in the arena after detach_from_siblings *)
Lemma mv_run : next_path a1 (Some f) Sl /\ Forall (inr a1) Sl /\ length Sl <= chain_fuel a1 /\
  (forall s, In s Sl -> onid_eqb (Some s) par = false).
Proof.
  destruct mv_dS as [D N]. split; [|split; [|split]].
  - apply (next_path_transfer a).
    + intros s Hs. apply mv_a1_links. apply live_inr. now apply mv_live_S.
    + exact (dseg_next_run _ _ _ _ D).
  - apply Forall_forall. intros s Hs. apply inr_amap, live_inr. now apply mv_live_S.
  - unfold chain_fuel, a1. rewrite length_amap. pose proof (live_list_bound a Sl N mv_live_S). lia.
  - intros s Hs. apply onid_eqb_false. intros E. symmetry in E. now apply (mv_par_notS s Hs).
Qed.

Lemma mv_transplant : transplant false f l par pv nx a1 = (a2, Ok COk).
Proof.
  destruct mv_run as (NP & IS & LS & NS). apply transplant_ok; auto.
  - apply inr_amap, live_inr, mv_live_S, mv_l_in.
  - apply oinr_amap, mv_oinr, mv_live_par.
  - apply oinr_amap, mv_oinr, mv_live_pv.
  - apply oinr_amap, mv_oinr, mv_live_nx.
Qed.

Lemma mv_exec :
  (detach_from_siblings false f l ;;; (r <- transplant false f l par pv nx ;; expect r))%mon a = (a2, Ok tt).
Proof. rewrite (bind_ok _ _ _ _ _ _ _ mv_dfs), (bind_ok _ _ _ _ _ _ _ mv_transplant). reflexivity. Qed.

Lemma mv_links_only : links_only (transplantF a1 Sl f l par pv nx ∘∘ dfsF a f l).
Proof. apply links_only_comp; [apply links_only_transplantF | apply links_only_dfsF]. Qed.
Lemma mv_a2_eq : a2 = amap (transplantF a1 Sl f l par pv nx ∘∘ dfsF a f l) a.
Proof. unfold a2, a1. now rewrite amap_amap. Qed.

Lemma mv_shape : same_shape a a2.
Proof. rewrite mv_a2_eq. apply same_shape_amap, mv_links_only. Qed.
Lemma mv_live2 : forall y, live a2 y <-> live a y.
Proof. intros. rewrite mv_a2_eq. apply live_amap, mv_links_only. Qed.

Lemma mv_par_ends : forall p, par = Some p ->
  let a1' := amap (cnF a1 par pv (Some f) ∘∘ reparentF Sl par) a1 in
  cn_first a1' par (Some l) nx = hd_error Mid /\ cn_last a1' par (Some l) nx = last_error Mid.
Proof.
  intros p E. cbv zeta. pose proof (mv_live_par p E) as Lp. pose proof HG as HG'. rewrite E in HG' |- *.
  destruct HG' as (EK & _).
  destruct (ends_of a F R p Lp) as [E1 E2]. rewrite EK in E1, E2.
  assert (Ip : inr a1 p) by (apply inr_amap, live_inr, Lp).
  destruct (transplant_par_ends a1 Sl f p pv Ip) as [F1 F2']. cbv zeta in F1, F2'.
  unfold cn_first at 1. unfold cn_last at 1. rewrite F1, F2'. unfold cn_first, cn_last.
  pose proof (mv_a1_field Ffirst p (live_inr _ _ Lp)) as G1.
  pose proof (mv_a1_field Flast p (live_inr _ _ Lp)) as G2. cbn [fld_eqb orb getf] in G1, G2.
  assert (Os : oat src (idx p) = false).
  { rewrite (oat_live a src p Lp mv_live_src). apply onid_eqb_false. intros Es.
    apply (mv_src_ne_par p Es E). }
  rewrite Os in G1, G2. cbn [andb] in G1, G2. rewrite G1, G2, E1, E2.
  unfold pv, nx, Mid. split.
  - destruct A; reflexivity.
  - rewrite !last_error_app. destruct B; reflexivity.
Qed.

(* the fields of a live node after the move, by ids *)
Lemma mv_fields : forall y, live a y ->
  parent (nd a2 y) = (if nid_in y Sl then par else parent (nd a y)) /\
  prev (nd a2 y) = (if onid_eqb nx (Some y) then Some l else if nid_eqb y f then pv else prev (nd a y)) /\
  next (nd a2 y) = (if nid_eqb y l then nx else if onid_eqb pv (Some y) then Some f else next (nd a y)) /\
  first (nd a2 y) = (if onid_eqb src (Some y) then None
                     else if onid_eqb par (Some y) then hd_error Mid else first (nd a y)) /\
  last (nd a2 y) = (if onid_eqb src (Some y) then None
                    else if onid_eqb par (Some y) then last_error Mid else last (nd a y)).
Proof.
  intros y L. pose proof (live_inr _ _ L) as I.
  assert (I1 : inr a1 y) by (now apply inr_amap).
  pose proof (transplant_fields a1 Sl f l par pv nx y I1) as H. cbv zeta in H. fold a2 in H.
  destruct (mv_a1_links y I) as (P1 & P2 & P3).
  pose proof (mv_a1_field Ffirst y I) as G1. pose proof (mv_a1_field Flast y I) as G2.
  cbn [fld_eqb orb getf] in G1, G2. rewrite andb_true_r in G1, G2.
  rewrite P1, P2, P3, G1, G2 in H.
  rewrite (oat_live a _ y L mv_live_pv), (oat_live a _ y L mv_live_nx), (oat_live a _ y L mv_live_par),
          (oat_live a _ y L mv_live_src) in H.
  rewrite (existsb_idx_live a y Sl L mv_live_S) in H.
  rewrite (live_idx_eqb a y f L (mv_live_S f mv_f_in)), (live_idx_eqb a y l L (mv_live_S l mv_l_in)) in H.
  destruct H as (H1 & H2 & H3 & H4 & H5). repeat split; auto.
  - rewrite H4. destruct (onid_eqb par (Some y)) eqn:Ep.
    + apply onid_eqb_eq in Ep. destruct (mv_par_ends y Ep) as [-> _].
      rewrite (proj2 (onid_eqb_false src (Some y))); auto. intros Es. exact (mv_src_ne_par y Es Ep).
    + destruct (onid_eqb src (Some y)); reflexivity.
  - rewrite H5. destruct (onid_eqb par (Some y)) eqn:Ep.
    + apply onid_eqb_eq in Ep. destruct (mv_par_ends y Ep) as [_ ->].
      rewrite (proj2 (onid_eqb_false src (Some y))); auto. intros Es. exact (mv_src_ne_par y Es Ep).
    + destruct (onid_eqb src (Some y)); reflexivity.
Qed.

Lemma mv_dead : forall i n', nth_error (nodes a2) i = Some n' -> (stamp n' < 0)%Z ->
  parent n' = None /\ prev n' = None /\ next n' = None /\ first n' = None /\ last n' = None.
Proof.
  intros i n' E St. rewrite mv_a2_eq, nth_amap in E.
  destruct (nth_error (nodes a) i) as [n|] eqn:En; [|discriminate]. cbn in E. inversion E; subst n'.
  destruct (mv_links_only i n) as [Es _]. rewrite Es in St.
  assert (O : forall o, (forall v, o = Some v -> live a v) -> oat o i = false)
    by (intros o; apply (oat_dead a o i n En St)).
  assert (Of : Nat.eqb i (idx f) = false).
  { apply (O (Some f)). intros v [= <-]. apply mv_live_S, mv_f_in. }
  assert (Ol : Nat.eqb i (idx l) = false).
  { apply (O (Some l)). intros v [= <-]. apply mv_live_S, mv_l_in. }
  destruct mv_f_fields as [P V].
  unfold comp. rewrite dfsF_other; rewrite ?P, ?V, ?mv_l_next; auto using mv_live_src.
  rewrite transplantF_other; auto using mv_live_par, mv_live_pv, mv_live_nx.
  - eapply (r_dead _ _ R); eauto.
  - apply (existsb_idx_dead a i n Sl En St mv_live_S).
Qed.

Lemma mv_sibs2 : sibs F2 par Mid.
Proof.
  pose proof mv_src_ne_par as NE. destruct par as [p|]; cbn.
  - rewrite HK. rewrite (proj2 (onid_eqb_false src (Some p))); [now rewrite onid_eqb_refl|].
    intros Es. now apply (NE p Es).
  - apply HT2. left. auto.
Qed.

Lemma mv_in_Mid : forall y, In y Mid <-> In y (A ++ B) \/ In y Sl.
Proof. clear. intros y. unfold Mid. rewrite !in_app_iff. tauto. Qed.

Lemma mv_kid_keep : forall q y, In y (kidsf F q) -> ~ In y Sl -> In y (kidsf F2 q).
Proof.
  intros q y H NS. rewrite HK. destruct (onid_eqb src (Some q)) eqn:Es.
  - apply onid_eqb_eq in Es. rewrite Es in HS. cbn in HS. rewrite HS in H. contradiction.
  - destruct (onid_eqb par (Some q)) eqn:Ep; auto.
    apply onid_eqb_eq in Ep. rewrite Ep in HG. destruct HG as (EK & _).
    apply mv_in_Mid. left. now rewrite <- EK.
Qed.

Lemma mv_top_keep : forall ch y, In ch (tops F) -> In y ch -> ~ In y Sl ->
  exists ch2, In ch2 (tops F2) /\ In y ch2.
Proof.
  intros ch y Hc Hy NS.
  assert (K : par = None /\ ch = A ++ B \/ (par = None -> ch <> A ++ B)).
  { destruct par; [right; discriminate|].
    destruct (list_eq_dec nid_eq_dec ch (A ++ B)); [left | right]; auto. }
  destruct K as [[Ep ->]|K].
  - exists Mid. split; [apply HT2; now left|]. apply mv_in_Mid. now left.
  - exists ch. split; auto. apply HT2. right. repeat split; auto. intros _ ->. contradiction.
Qed.

Lemma mv_sibs_member : forall G o L y, sibs G o L -> In y L -> memberF G y.
Proof. intros G [p|] L y H Hy; cbn in H; [subst L; left | right]; eauto. Qed.

Lemma mv_member : forall y, memberF F2 y <-> memberF F y.
Proof.
  intros y. split.
  - assert (M : In y Mid -> memberF F y).
    { intros H. apply mv_in_Mid in H. destruct H as [H|H]; [|eapply mv_sibs_member; eauto].
      destruct mv_gap as [E|G]; [rewrite E in H; destruct H|]. eapply mv_sibs_member; eauto. }
    intros [[q H]|(ch & Hc & H)].
    + rewrite HK in H. destruct (onid_eqb src (Some q)); [destruct H|].
      destruct (onid_eqb par (Some q)); [auto | left; eauto].
    + apply HT2 in Hc. destruct Hc as [(_ & ->)|(Hc & _)]; [auto | right; eauto].
  - intros M. destruct (in_dec nid_eq_dec y Sl) as [I|NI].
    + apply (mv_sibs_member F2 par Mid); [apply mv_sibs2 | apply mv_in_Mid; now right].
    + destruct M as [[q H]|(ch & Hc & H)].
      * left. exists q. now apply mv_kid_keep.
      * right. eapply mv_top_keep; eauto.
Qed.

(* a node with no ancestor in Sl keeps its depth *)
Lemma mv_depth_avoid : forall y d, depthF F y d -> (forall s, In s Sl -> ~ ancF F y s) -> depthF F2 y d.
Proof.
  induction 1 as [y ch Hc Hy | y q d Hy Hq IH]; intros NA.
  - destruct (mv_top_keep ch y Hc Hy) as (ch2 & H2 & Hy2).
    + intros I. apply (NA y I). constructor.
    + eapply depth_top; eauto.
  - apply depth_kid with (p := q).
    + apply mv_kid_keep; auto. intros I. apply (NA y I). constructor.
    + apply IH. intros s Hs H. apply (NA s Hs). eapply anc_step; eauto.
Qed.

Lemma mv_depth_S : forall s, In s Sl -> exists d, depthF F2 s d.
Proof.
  intros s Hs. assert (IM : In s Mid) by (apply mv_in_Mid; now right).
  pose proof mv_sibs2 as S2. pose proof mv_live_par as LP. pose proof mv_depth_avoid as DA.
  destruct par as [p|]; cbn in S2.
  - destruct HG as (_ & _ & NA). destruct (member_depth a F R p (LP p eq_refl)) as [d Hd].
    exists (S d). apply depth_kid with (p := p); [now rewrite S2|]. now apply DA.
  - exists 0. eapply depth_top; eauto.
Qed.

Lemma mv_depth : forall y d, depthF F y d -> exists d', depthF F2 y d'.
Proof.
  induction 1 as [y ch Hc Hy | y q d Hy Hq IH];
    (destruct (in_dec nid_eq_dec y Sl) as [I|NI]; [now apply mv_depth_S|]).
  - destruct (mv_top_keep ch y Hc Hy NI) as (ch2 & H2 & Hy2). exists 0. eapply depth_top; eauto.
  - destruct IH as [d' IH]. exists (S d'). apply depth_kid with (p := q); auto.
    now apply mv_kid_keep.
Qed.

Lemma mv_len : length (nodes a2) = length (nodes a).
Proof. apply mv_shape. Qed.

Lemma mv_notS : forall y, ~ In y Sl -> nid_in y Sl = false /\ nid_eqb y f = false /\ nid_eqb y l = false.
Proof.
  intros y N. split; [now apply nid_in_false|].
  split; apply nid_eqb_neq; intros ->; apply N; [apply mv_f_in | apply mv_l_in].
Qed.

Lemma mv_list_mid : dseg a2 par None Mid None.
Proof.
  destruct mv_dAB as [D N]. destruct mv_dS as [DS NS].
  apply dseg_app in D. destruct D as [DA DB].
  assert (FAB : forall y, In y (A ++ B) ->
            parent (nd a2 y) = par /\ prev (nd a2 y) = (if onid_eqb nx (Some y) then Some l else prev (nd a y)) /\
            next (nd a2 y) = (if onid_eqb pv (Some y) then Some f else next (nd a y))).
  { intros y Hy. destruct (mv_fields y (mv_live_AB y Hy)) as (-> & -> & -> & _).
    destruct (mv_notS y (fun H => HD y H Hy)) as (-> & -> & ->).
    split; [|auto]. destruct mv_dAB as [D' _]. exact (dseg_parent _ _ _ _ _ _ D' Hy). }
  unfold Mid. apply dseg_app. split; [|apply dseg_app; split].
  - change (hd_error (Sl ++ B)) with (Some f). cbn [or_else].
    eapply dseg_retail; [exact DA | eapply NoDup_app_left; eauto | apply mv_len |].
    intros y Hy. destruct (FAB y (in_or_app _ _ _ (or_introl Hy))) as (-> & -> & ->).
    rewrite (proj2 (onid_eqb_false nx (Some y)))
      by (intros E; apply hd_error_In in E; exact (NoDup_app_disj _ _ N y Hy E)). auto.
  - eapply dseg_rebuild; [exact DS | exact NS | apply mv_len | | |]; intros y Hy;
      destruct (mv_fields y (mv_live_S _ Hy)) as (P & V & X & _).
    + now rewrite P, (proj2 (nid_in_In y Sl) Hy).
    + rewrite V, (proj2 (onid_eqb_false nx (Some y))) by (now apply mv_nx_notS).
      change (hd_error Sl) with (Some f). cbn [onid_eqb]. rewrite (nid_eqb_sym f y). unfold pv. now destruct (nid_eqb y f), (last_error A).
    + rewrite X. change (last_error Sl) with (Some l). cbn [onid_eqb]. rewrite (nid_eqb_sym l y).
      destruct (nid_eqb y l); [unfold nx; now destruct (hd_error B)|].
      now rewrite (proj2 (onid_eqb_false pv (Some y))) by (now apply mv_pv_notS).
  - change (last_error Sl) with (Some l). cbn [or_else].
    eapply dseg_rehead; [exact DB | eapply NoDup_app_right; eauto | apply mv_len |].
    intros y Hy. destruct (FAB y (in_or_app _ _ _ (or_intror Hy))) as (-> & -> & ->).
    rewrite (proj2 (onid_eqb_false pv (Some y)))
      by (intros E; apply last_error_In in E; exact (NoDup_app_disj _ _ N y E Hy)). auto.
Qed.

(* a sibling list of F that meets neither Sl nor A ++ B is untouched *)
Lemma mv_list_other : forall o' L', sibs F o' L' ->
  (forall y, In y L' -> ~ In y Sl /\ ~ In y (A ++ B)) -> dseg a2 o' None L' None.
Proof.
  intros o' L' H DJ. destruct (sibs_dseg a F R _ _ H) as [D _].
  eapply dseg_frame; [exact D | apply mv_len |].
  intros y Hy. destruct (DJ y Hy) as [NS NAB].
  destruct (mv_fields y (sibs_live a F R _ _ _ H Hy)) as (-> & -> & -> & _).
  destruct (mv_notS y NS) as (-> & -> & ->).
  rewrite !(proj2 (onid_eqb_false _ _)); auto.
  - intros E. apply last_error_In in E. apply NAB. apply in_or_app. now left.
  - intros E. apply hd_error_In in E. apply NAB. apply in_or_app. now right.
Qed.

Lemma mv_disj : forall o' L', sibs F o' L' -> (o' <> src \/ L' <> Sl) ->
  (A ++ B = [] \/ o' <> par \/ L' <> A ++ B) ->
  forall y, In y L' -> ~ In y Sl /\ ~ In y (A ++ B).
Proof.
  intros o' L' H N1 N2 y Hy. split; intros Hy'.
  - destruct (sibs_unique a F R _ _ _ _ _ H HS Hy Hy'). destruct N1; contradiction.
  - destruct mv_gap as [E|G]; [rewrite E in Hy'; destruct Hy'|].
    destruct (sibs_unique a F R _ _ _ _ _ H G Hy Hy'). destruct N2 as [E|[N2|N2]]; [|contradiction|contradiction].
    rewrite E in Hy'. destruct Hy'.
Qed.

Lemma mv_repr : Repr a2 F2.
Proof.
  destruct mv_dAB as [_ ND]. destruct mv_dS as [_ NDS].
  assert (NDM : NoDup Mid).
  { apply NoDup_insert_middle; auto. }
  constructor.
  - intros y. rewrite mv_member, (r_live _ _ R). symmetry. apply mv_live2.
  - intros q. rewrite HK. destruct (onid_eqb src (Some q)) eqn:Es; [split; [exact I | constructor]|].
    apply onid_eqb_false in Es.
    destruct (onid_eqb par (Some q)) eqn:Ep.
    + apply onid_eqb_eq in Ep. split; auto. rewrite <- Ep. apply mv_list_mid.
    + apply onid_eqb_false in Ep. split; [|apply (r_kids _ _ R)].
      apply (mv_list_other (Some q) (kidsf F q)); [reflexivity|].
      apply (mv_disj (Some q)); [reflexivity | left; congruence | right; left; congruence].
  - intros q H. apply mv_live2. rewrite HK in H.
    destruct (onid_eqb src (Some q)); [now destruct H|].
    destruct (onid_eqb par (Some q)) eqn:Ep.
    + apply onid_eqb_eq in Ep. now apply mv_live_par.
    + now apply (r_owner _ _ R).
  - intros ch H. apply HT2 in H. destruct H as [(Ep & ->)|(Hc & N1 & N2)].
    + split; [unfold Mid, Sl; destruct A; discriminate|]. split; auto.
      pose proof mv_list_mid as G. now rewrite Ep in G.
    + destruct (r_tops _ _ R ch Hc) as (NE & _ & N3). split; auto. split; auto.
      apply (mv_list_other None ch Hc). apply (mv_disj None ch Hc).
      * destruct src; [left; discriminate | right; auto].
      * destruct par; [right; left; discriminate | right; right; auto].
  - intros p n Lp Hn. apply mv_live2 in Lp. apply node_at_nd in Hn. destruct Hn as [_ <-].
    destruct (mv_fields p Lp) as (_ & _ & _ & -> & ->). rewrite HK.
    destruct (onid_eqb src (Some p)); [split; reflexivity|].
    destruct (onid_eqb par (Some p)); auto. now apply ends_of.
  - intros y My. apply mv_member in My. destruct (r_depth _ _ R y My) as [d Hd]. eapply mv_depth; eauto.
  - exact mv_dead.
Qed.

(* a top-level chain is already cut loose: detach_from_siblings does nothing to it *)
Lemma mv_a1_top : src = None -> a1 = a.
Proof.
  intros E. destruct mv_f_fields as [P V]. rewrite E in P.
  apply dfsF_detached; auto using mv_l_next.
Qed.

End Move.

(* the hypotheses HG, HD, HK, HT2 of [Section Move] in one proposition *)
Definition move_ok (a : arena) (F : forest) (src : option nid) (Sl : list nid) par
                   (A B : list nid) (F2 : forest) : Prop :=
  match par with
  | Some p => kidsf F p = A ++ B /\ live a p /\ (forall s, In s Sl -> ~ ancF F p s)
  | None => A ++ B = [] \/ In (A ++ B) (tops F)
  end /\
  (forall s, In s Sl -> ~ In s (A ++ B)) /\
  (forall q, kidsf F2 q =
     if onid_eqb src (Some q) then [] else if onid_eqb par (Some q) then A ++ Sl ++ B else kidsf F q) /\
  (forall ch, In ch (tops F2) <->
     (par = None /\ ch = A ++ Sl ++ B) \/
     (In ch (tops F) /\ (src = None -> ch <> Sl) /\ (par = None -> ch <> A ++ B))).

(* the two link operations that move the complete sibling list f :: S' (of owner src) into the gap between
   A and B under the parent par (remove splices the children of the removed node this way; with S' = [] and
   src = None it is what every insert does) *)
Theorem move_refines : forall a F src f S' par A B F2,
  Repr a F -> sibs F src (f :: S') -> move_ok a F src (f :: S') par A B F2 ->
  let l := List.last S' f in
  let a2 := amap (transplantF (amap (dfsF a f l) a) (f :: S') f l par (last_error A) (hd_error B))
                 (amap (dfsF a f l) a) in
  (detach_from_siblings false f l ;;;
   (r <- transplant false f l par (last_error A) (hd_error B) ;; expect r))%mon a = (a2, Ok tt) /\
  Repr a2 F2 /\ same_shape a a2.
Proof.
  intros a F src f S' par A B F2 R HS (HG & HD & HK & HT2). cbv zeta. split; [|split].
  - eapply mv_exec; eauto.
  - eapply mv_repr; eauto.
  - eapply mv_shape; eauto.
Qed.

(* the same for a run that is a top-level chain, without the (idle) detach_from_siblings:
   what insert_last_unchecked does with a fresh node *)
Corollary move_top_refines : forall a F f S' par A B F2,
  Repr a F -> In (f :: S') (tops F) -> move_ok a F None (f :: S') par A B F2 ->
  let l := List.last S' f in
  let a2 := amap (transplantF a (f :: S') f l par (last_error A) (hd_error B)) a in
  transplant false f l par (last_error A) (hd_error B) a = (a2, Ok COk) /\ Repr a2 F2 /\ same_shape a a2.
Proof.
  intros a F f S' par A B F2 R HS OK. pose proof OK as (HG & HD & HK & HT2).
  destruct (move_refines a F None f S' par A B F2 R HS OK) as (_ & R2 & S2).
  pose proof (mv_transplant a F None f S' par A B R HS HG) as E.
  cbv zeta in *. rewrite (mv_a1_top a F None f S' R HS eq_refl) in *. auto.
Qed.

Definition gap_of (k : inskind) (x : nid) (n : node) : option nid * option nid * option nid :=
  match k with
  | KAppend => (Some x, last n, None)
  | KPrepend => (Some x, None, first n)
  | KAfter => (parent n, Some x, next n)
  | KBefore => (parent n, prev n, Some x)
  end.

Definition ins_tail (dbg : bool) (k : inskind) (x c : nid) : M nres :=
  detach dbg c ;;;
  n <- rdi x ;;
  r <- insert_with_neighbors dbg c (fst (fst (gap_of k x n))) (snd (fst (gap_of k x n))) (snd (gap_of k x n)) ;;
  expect r ;;; ret NOk.

Definition ins_anc (k : inskind) (x c : nid) : M bool :=
  match k with
  | KAppend | KPrepend => is_ancestor_or_self x c
  | KAfter | KBefore => is_strict_ancestor x c
  end.

Lemma checked_insert_eq : forall dbg k x c,
  checked_insert dbg k x c =
  if nid_eqb c x then ret (NErr (ins_self k)) else
  rm <- either_removed x c ;;
  if rm : bool then ret (NErr Removed) else
  anc <- ins_anc k x c ;;
  if anc : bool then ret (NErr (ins_ancestor k)) else ins_tail dbg k x c.
Proof. intros dbg [] x c; reflexivity. Qed.

Lemma gap_child : forall a1 F1 c x A B F2,
  live a1 x -> ~ ancF F1 x c -> kidsf F1 x = A ++ B -> ~ In c (A ++ B) ->
  (forall q, kidsf F2 q = if nid_eqb q x then A ++ c :: B else kidsf F1 q) ->
  (forall ch, In ch (tops F2) <-> In ch (tops F1) /\ ch <> [c]) ->
  move_ok a1 F1 None [c] (Some x) A B F2.
Proof.
  intros a1 F1 c x A B F2 L NA EK NC HK HT. repeat split.
  - exact EK.
  - exact L.
  - intros s [<-|[]]. exact NA.
  - intros s [<-|[]]. exact NC.
  - intros q. rewrite HK. cbn [onid_eqb]. now rewrite (nid_eqb_sym x q).
  - intros H. apply HT in H. right. repeat split; try tauto. discriminate.
  - intros [[E _]|(H & N & _)]; [discriminate|]. apply HT. auto.
Qed.

Lemma gap_sibling : forall a1 F1 c x par A B F2 (f : list nid -> list nid),
  Repr a1 F1 -> In [c] (tops F1) -> x <> c ->
  sibs F1 par (A ++ B) -> In x (A ++ B) ->
  (forall p, par = Some p -> ~ ancF F1 p c) ->
  (forall l, ~ In x l -> f l = l) -> f (A ++ B) = A ++ c :: B ->
  (forall q, kidsf F2 q = f (kidsf F1 q)) ->
  (forall ch, In ch (tops F2) <-> exists ch0, In ch0 (tops F1) /\ ch0 <> [c] /\ ch = f ch0) ->
  move_ok a1 F1 None [c] par A B F2.
Proof.
  intros a1 F1 c x par A B F2 f R HT NE HS Hx NA Fn Fm HK HT2.
  assert (SAME : forall o L, sibs F1 o L -> In x L -> o = par /\ L = A ++ B).
  { intros o L H I. exact (sibs_unique a1 F1 R _ _ _ _ _ H HS I Hx). }
  assert (NC : ~ In c (A ++ B)).
  { intros I. destruct (sibs_unique a1 F1 R None par [c] (A ++ B) c HT HS (or_introl eq_refl) I) as [_ E].
    rewrite <- E in Hx. destruct Hx as [->|[]]. congruence. }
  repeat split.
  - destruct par as [p|]; cbn in HS; [|now right].
    split; auto. split; [eapply owner_live; eauto; rewrite HS; exact Hx|]. intros s [<-|[]]. now apply NA.
  - intros s [<-|[]]. exact NC.
  - intros q. rewrite HK. cbn [onid_eqb]. destruct (onid_eqb par (Some q)) eqn:E.
    + apply onid_eqb_eq in E. rewrite E in HS. cbn in HS. rewrite HS. exact Fm.
    + apply Fn. intros Hq. apply onid_eqb_false in E. apply E.
      symmetry. apply (SAME (Some q) (kidsf F1 q)); [reflexivity | exact Hq].
  - intros H. apply HT2 in H. destruct H as (ch0 & H0 & N0 & ->).
    destruct (in_dec nid_eq_dec x ch0) as [I|NI].
    + destruct (SAME None ch0 H0 I) as [<- ->]. left. auto.
    + right. rewrite Fn by auto. repeat split; auto. intros _ E. apply NI. now rewrite E.
  - intros [(Ep & ->)|(H0 & N0 & NE')]; apply HT2.
    + exists (A ++ B). rewrite Ep in HS. repeat split; auto. intros E. rewrite E in Hx.
      destruct Hx as [->|[]]. congruence.
    + exists ch. repeat split; auto. symmetry. apply Fn. intros I.
      destruct (SAME None ch H0 I) as [<- ->]. now apply NE'.
Qed.

Lemma would_cycle_detach : forall c F k x y, would_cycle (f_detach c F) k x y -> would_cycle F k x y.
Proof.
  intros c F k x y H. destruct k; cbn in *; try (eapply anc_detach; eauto).
  - destruct H as (p & Hp & H). apply In_remove_id in Hp. exists p. split; [tauto|]. eapply anc_detach; eauto.
  - destruct H as (p & Hp & H). apply In_remove_id in Hp. exists p. split; [tauto|]. eapply anc_detach; eauto.
Qed.

Lemma detach_tops_no_x : forall x F c,
  In c (filter nonempty (map (remove_id x) (tops F))) -> ~ In x c.
Proof.
  intros x F c H. apply in_nonempty_map in H. destruct H as (c0 & _ & <- & _). intros Hx.
  apply In_remove_id in Hx. tauto.
Qed.

Lemma tops_detach_rest : forall c F ch, In ch (tops (f_detach c F)) /\ ch <> [c] <->
  In ch (filter nonempty (map (remove_id c) (tops F))).
Proof.
  intros c F ch. cbn [f_detach tops In]. split.
  - intros [[<-|H] N]; [congruence | exact H].
  - intros H. split; [now right|]. intros ->. apply (detach_tops_no_x _ _ _ H). now left.
Qed.

Lemma gap_for_kind : forall a1 F k x c,
  Repr a1 (f_detach c F) -> live a1 x -> x <> c -> ~ would_cycle (f_detach c F) k x c ->
  exists par A B,
    gap_of k x (nd a1 x) = (par, last_error A, hd_error B) /\
    move_ok a1 (f_detach c F) None [c] par A B (f_insert k x c F).
Proof.
  intros a1 F k x c R L NE NC.
  set (F1 := f_detach c F) in *.
  assert (HT : In [c] (tops F1)) by (now left).
  assert (NK : forall q, ~ In c (kidsf F1 q)).
  { intros q H. eapply (kid_not_top a1 F1 R q [c] c); eauto. now left. }
  assert (KX : forall (g : list nid -> list nid) q,
            (if nid_eqb q x then g (kidsf F1 q) else kidsf F1 q) = if nid_eqb q x then g (kidsf F1 x) else kidsf F1 q).
  { intros g q. destruct (nid_eqb q x) eqn:E; auto. apply nid_eqb_eq in E. now subst q. }
  (* x in its own sibling list, for the two kinds that insert next to x *)
  destruct (sibs_split a1 F1 R x L) as (A0 & B0 & HS).
  destruct (sibs_mid a1 F1 R _ _ _ _ HS) as [Pv Nx].
  destruct (sibs_dseg a1 F1 R _ _ HS) as [_ ND]. apply NoDup_mid in ND. destruct ND as (NA & NB & _).
  assert (Ix : In x (A0 ++ x :: B0)) by (apply in_elt).
  assert (TS : forall (g : list nid -> list nid) ch, In ch (map g (filter nonempty (map (remove_id c) (tops F)))) <->
                            exists ch0, In ch0 (tops F1) /\ ch0 <> [c] /\ ch = g ch0).
  { intros g ch. rewrite in_map_iff. split.
    - intros (ch0 & <- & H0). exists ch0. apply tops_detach_rest in H0. tauto.
    - intros (ch0 & H0 & N0 & ->). exists ch0. split; auto. apply tops_detach_rest. auto. }
  destruct k.
  - exists (Some x), (kidsf F1 x), []. split.
    + cbn [gap_of]. now destruct (ends_of a1 F1 R x L) as [_ ->].
    + apply gap_child; auto.
      * now rewrite app_nil_r.
      * rewrite app_nil_r. apply NK.
      * intros q. apply (KX (fun l => l ++ [c])).
      * intros ch. symmetry. apply tops_detach_rest.
  - exists (Some x), [], (kidsf F1 x). split.
    + cbn [gap_of]. now destruct (ends_of a1 F1 R x L) as [-> _].
    + apply gap_child; auto.
      * apply NK.
      * intros q. apply (KX (cons c)).
      * intros ch. symmetry. apply tops_detach_rest.
  - assert (EL : (A0 ++ [x]) ++ B0 = A0 ++ x :: B0) by (now rewrite <- app_assoc).
    exists (parent (nd a1 x)), (A0 ++ [x]), B0. split.
    + cbn [gap_of]. now rewrite last_error_snoc, Nx.
    + apply (gap_sibling a1 F1 c x _ _ _ _ (ins_after x c)); auto.
      * now rewrite EL.
      * now rewrite EL.
      * intros p Ep H. apply NC. cbn. exists p. split; auto. rewrite Ep in HS. cbn in HS. now rewrite HS.
      * intros l Hl. now apply ins_after_notin.
      * rewrite EL, ins_after_mid by auto. now rewrite <- app_assoc.
      * apply TS.
  - exists (parent (nd a1 x)), A0, (x :: B0). split.
    + cbn [gap_of hd_error]. now rewrite Pv.
    + apply (gap_sibling a1 F1 c x _ _ _ _ (ins_before x c)); auto.
      * intros p Ep H. apply NC. cbn. exists p. split; auto. rewrite Ep in HS. cbn in HS. now rewrite HS.
      * intros l Hl. now apply ins_before_notin.
      * now apply ins_before_mid.
      * apply TS.
Qed.

(* in release builds insert_with_neighbors is its three loop checks and then the move *)
Lemma iwn_move : forall c par pv nx a a2,
  onid_eqb pv (Some c) = false -> onid_eqb nx (Some c) = false -> onid_eqb par (Some c) = false ->
  (detach_from_siblings false c c ;;; (r <- transplant false c c par pv nx ;; expect r))%mon a = (a2, Ok tt) ->
  insert_with_neighbors false c par pv nx a = (a2, Ok COk).
Proof.
  intros c par pv nx a a2 E1 E2 E3 H. unfold insert_with_neighbors. cbn [dtriangle when_dbg].
  rewrite bind_ret, E1, E2, E3. cbn [orb].
  unfold bind, ret in *. destruct (detach_from_siblings false c c a) as [a1 [[]| |]]; try discriminate.
  destruct (transplant false c c par pv nx a1) as [a3 [r| |]]; try discriminate. now rewrite H.
Qed.

Lemma gap_neq : forall a1 F1 c par A B F2, move_ok a1 F1 None [c] par A B F2 ->
  onid_eqb (last_error A) (Some c) = false /\ onid_eqb (hd_error B) (Some c) = false /\
  onid_eqb par (Some c) = false.
Proof.
  intros a1 F1 c par A B F2 (HG & HD & _). repeat split; apply onid_eqb_false.
  - eapply mv_pv_notS; eauto. now left.
  - eapply mv_nx_notS; eauto. now left.
  - eapply (mv_par_notS a1 F1 c [] par A B); eauto. now left.
Qed.

Lemma ins_tail_refines : forall a F k x c,
  Repr a F -> live a x -> live a c -> x <> c -> ~ would_cycle F k x c ->
  exists a', ins_tail false k x c a = (a', Ok NOk) /\ Repr a' (f_insert k x c F) /\ same_shape a a'.
Proof.
  intros a F k x c R Lx Lc NE NC.
  destruct (detach_refines a F c R Lc) as (a1 & E1 & R1 & S1).
  assert (L1 : live a1 x) by (now apply (live_same_shape a a1)).
  assert (NC1 : ~ would_cycle (f_detach c F) k x c) by (intros H; apply NC; eapply would_cycle_detach; eauto).
  assert (HT : In [c] (tops (f_detach c F))) by (now left).
  destruct (gap_for_kind a1 F k x c R1 L1 NE NC1) as (par & A & B & EG & OK).
  destruct (gap_neq _ _ _ _ _ _ _ OK) as (N1 & N2 & N3).
  destruct (move_refines a1 _ None c [] par A B _ R1 HT OK) as (E2 & R2 & S2). cbv zeta in E2, R2, S2.
  eexists. split; [|split; [exact R2 | eapply same_shape_trans; eauto]].
  unfold ins_tail. rewrite (bind_ok _ _ _ _ _ _ _ E1). rewrite bind_rdi by (now apply live_inr).
  rewrite EG. cbn [fst snd]. now rewrite (bind_ok _ _ _ _ _ _ _ (iwn_move _ _ _ _ _ _ N1 N2 N3 E2)).
Qed.

Lemma either_removed_ok : forall a x c, inr a x -> inr a c ->
  either_removed x c a = (a, Ok ((stamp (nd a x) <? 0)%Z || (stamp (nd a c) <? 0)%Z)).
Proof.
  intros a x c Ix Ic. unfold either_removed. rewrite bind_rdi by auto.
  unfold node_is_removed, st_is_removed. destruct (stamp (nd a x) <? 0)%Z; [reflexivity|].
  rewrite bind_rdi by auto. reflexivity.
Qed.

Lemma live_ltb : forall a x, live a x -> (stamp (nd a x) <? 0)%Z = false.
Proof. intros a x L. apply live_stamp in L. apply Z.ltb_ge. lia. Qed.
Lemma removed_ltb : forall a x, slot_removed a x -> (stamp (nd a x) <? 0)%Z = true.
Proof. intros a x H. apply slot_removed_stamp in H. apply Z.ltb_lt. tauto. Qed.

Lemma ins_anc_ok : forall a F k x c, Repr a F -> live a x ->
  exists b, ins_anc k x c a = (a, Ok b) /\ (b = true <-> would_cycle F k x c).
Proof.
  intros a F k x c R L. destruct k; cbn [ins_anc would_cycle].
  - rewrite is_ancestor_or_self_eq. destruct (anc_any_repr a F R x c L) as (b & -> & H). eauto.
  - rewrite is_ancestor_or_self_eq. destruct (anc_any_repr a F R x c L) as (b & -> & H). eauto.
  - rewrite is_strict_ancestor_eq by (now apply live_inr).
    destruct (anc_any_parent_repr a F R x c L) as (b & -> & H). eauto.
  - rewrite is_strict_ancestor_eq by (now apply live_inr).
    destruct (anc_any_parent_repr a F R x c L) as (b & -> & H). eauto.
Qed.

Lemma would_cycle_dec : forall a F k x c, Repr a F -> live a x ->
  would_cycle F k x c \/ ~ would_cycle F k x c.
Proof.
  intros a F k x c R L. destruct (ins_anc_ok a F k x c R L) as ([|] & _ & H).
  - left. now apply H.
  - right. intros W. apply H in W. discriminate.
Qed.

Theorem impossible_dec : forall a F k x c, Repr a F -> usable a x -> usable a c ->
  impossible a F k x c \/ ~ impossible a F k x c.
Proof.
  intros a F k x c R Ux Uc. unfold impossible.
  destruct (nid_eq_dec x c) as [E|NE]; [now left; left|].
  destruct Ux as [Lx|Rx]; [|now left; right; left].
  destruct Uc as [Lc|Rc]; [|now left; right; right; left].
  destruct (would_cycle_dec a F k x c R Lx) as [W|NW]; [now left; right; right; right|].
  right. intros [H|[H|[H|H]]]; auto.
  - now apply (live_not_removed a x).
  - now apply (live_not_removed a c).
Qed.

Theorem checked_insert_refines : forall a F k x c, Repr a F -> usable a x -> usable a c ->
  (impossible a F k x c ->
     exists e, checked_insert false k x c a = (a, Ok (NErr e)) /\ reason_applies a F k x c e) /\
  (~ impossible a F k x c ->
     exists a', checked_insert false k x c a = (a', Ok NOk) /\ Repr a' (f_insert k x c F) /\ same_shape a a').
Proof.
  intros a F k x c R Ux Uc. rewrite checked_insert_eq.
  destruct (nid_eq_dec x c) as [E|NE].
  { subst c. rewrite nid_eqb_refl. split.
    - intros _. exists (ins_self k). split; [reflexivity|]. left. auto.
    - intros NI. exfalso. apply NI. now left. }
  rewrite nid_eqb_neq by congruence.
  erewrite bind_ok by (apply either_removed_ok; now apply usable_inr).
  destruct Ux as [Lx|Rx].
  2:{ rewrite (removed_ltb _ _ Rx). cbn [orb]. split.
      - intros _. exists Removed. split; [reflexivity|]. right. left. auto.
      - intros NI. exfalso. apply NI. right. now left. }
  rewrite (live_ltb _ _ Lx). cbn [orb].
  destruct Uc as [Lc|Rc].
  2:{ rewrite (removed_ltb _ _ Rc). split.
      - intros _. exists Removed. split; [reflexivity|]. right. left. auto.
      - intros NI. exfalso. apply NI. right. right. now left. }
  rewrite (live_ltb _ _ Lc).
  destruct (ins_anc_ok a F k x c R Lx) as (b & Eb & Hb).
  erewrite bind_ok by exact Eb. destruct b.
  - assert (W : would_cycle F k x c) by (now apply Hb). split.
    + intros _. exists (ins_ancestor k). split; [reflexivity|]. right. right. auto.
    + intros NI. exfalso. apply NI. right. right. now right.
  - assert (NW : ~ would_cycle F k x c) by (intros W; apply Hb in W; discriminate). split.
    + intros [H|[H|[H|H]]]; exfalso; auto.
      * now apply (live_not_removed a x).
      * now apply (live_not_removed a c).
    + intros _. now apply ins_tail_refines.
Qed.

Lemma unchecked_insert_eq : forall dbg k x c,
  unchecked_insert dbg k x c = (r <- checked_insert dbg k x c ;; expect_n r).
Proof. intros dbg [] x c; reflexivity. Qed.

Corollary unchecked_insert_refines : forall a F k x c, Repr a F -> usable a x -> usable a c ->
  (impossible a F k x c -> unchecked_insert false k x c a = (a, Panic P_PRECOND)) /\
  (~ impossible a F k x c ->
     exists a', unchecked_insert false k x c a = (a', Ok tt) /\ Repr a' (f_insert k x c F) /\ same_shape a a'
                /\ checked_insert false k x c a = (a', Ok NOk)).
Proof.
  intros a F k x c R Ux Uc. destruct (checked_insert_refines a F k x c R Ux Uc) as [H1 H2].
  rewrite unchecked_insert_eq. split.
  - intros I. destruct (H1 I) as (e & E & _). unfold bind. now rewrite E.
  - intros NI. destruct (H2 NI) as (a' & E & R' & S'). exists a'. unfold bind. rewrite E. auto.
Qed.

Lemma reinsert_feq_sib : forall a F F2 o L x c (f : list nid -> list nid),
  Repr a F -> sibs F o L -> In c L -> In x L -> x <> c ->
  f (remove_id c L) = L -> (forall l, ~ In x l -> f l = l) ->
  (forall q, kidsf F2 q = f (remove_id c (kidsf F q))) ->
  tops F2 = map f (filter nonempty (map (remove_id c) (tops F))) ->
  feq F2 F.
Proof.
  intros a F F2 o L x c f R HS Hc Hx NE FL Fn HK HT.
  assert (OTHER : forall o' L', sibs F o' L' -> ~ In c L' -> f (remove_id c L') = L').
  { intros o' L' HS' NC. rewrite remove_id_notin by auto. apply Fn. intros Hx'.
    destruct (sibs_unique a F R _ _ _ _ _ HS' HS Hx' Hx) as [_ ->]. contradiction. }
  assert (SAME : forall o' L', sibs F o' L' -> In c L' -> L' = L).
  { intros o' L' HS' Hc'. now destruct (sibs_unique a F R _ _ _ _ _ HS' HS Hc' Hc). }
  assert (ALL : forall o' L', sibs F o' L' -> f (remove_id c L') = L').
  { intros o' L' HS'. destruct (in_dec nid_eq_dec c L') as [I|NI]; [|eauto].
    rewrite (SAME _ _ HS' I). exact FL. }
  split.
  - intros q. rewrite HK. apply (ALL (Some q)). reflexivity.
  - intros ch. rewrite HT, in_map_iff. split.
    + intros (ch1 & <- & H1). apply tops_rest in H1. destruct H1 as (ch0 & H0 & -> & _).
      now rewrite (ALL None ch0 H0).
    + intros H. exists (remove_id c ch). split; [apply (ALL None ch H)|].
      apply tops_rest. exists ch. repeat split; auto.
      destruct (in_dec nid_eq_dec c ch) as [I|NI].
      * rewrite (SAME None ch H I). intros E.
        assert (In x (remove_id c L)) by (apply In_remove_id; auto). rewrite E in H0. destruct H0.
      * rewrite remove_id_notin by auto. now destruct (r_tops _ _ R ch H).
Qed.

Lemma reinsert_feq_child : forall a F F2 x c (g : list nid -> list nid),
  Repr a F -> In c (kidsf F x) -> g (remove_id c (kidsf F x)) = kidsf F x ->
  (forall q, kidsf F2 q = if nid_eqb q x then g (remove_id c (kidsf F q)) else remove_id c (kidsf F q)) ->
  tops F2 = filter nonempty (map (remove_id c) (tops F)) ->
  feq F2 F.
Proof.
  intros a F F2 x c g R Hc G HK HT. split.
  - intros q. rewrite HK. destruct (nid_eqb q x) eqn:E.
    + apply nid_eqb_eq in E. now subst q.
    + apply nid_eqb_false in E. apply remove_id_notin. intros Hq. apply E.
      eapply kid_unique; eauto.
  - intros ch. rewrite HT, tops_rest. split.
    + intros (ch0 & H0 & -> & _). rewrite remove_id_notin; auto. eapply kid_not_top; eauto.
    + intros H. exists ch. split; auto.
      rewrite remove_id_notin by (eapply kid_not_top; eauto). split; auto. now destruct (r_tops _ _ R ch H).
Qed.

Lemma reinsert_feq : forall a F k x c, Repr a F -> live a x -> x <> c ->
  match k with KAppend => last (nd a x) = Some c | KPrepend => first (nd a x) = Some c
             | KAfter => next (nd a x) = Some c | KBefore => prev (nd a x) = Some c end ->
  feq (f_insert k x c F) F /\ ~ would_cycle F k x c.
Proof.
  intros a F k x c R Lx NE H. destruct k.
  - destruct (ends_of a F R x Lx) as [_ E]. rewrite H in E. symmetry in E.
    pose proof (last_error_In _ _ E) as Hc. split; [|now apply (kid_not_anc a F R)].
    apply last_error_split in E. destruct E as [A E].
    destruct (r_kids _ _ R x) as [_ ND]. rewrite E in ND. apply NoDup_mid in ND. destruct ND as (NA & _ & _).
    apply (reinsert_feq_child a F _ x c (fun l => l ++ [c])); auto.
    rewrite E, remove_id_mid by auto. now rewrite app_nil_r.
  - destruct (ends_of a F R x Lx) as [E _]. rewrite H in E. symmetry in E.
    pose proof (hd_error_In _ _ E) as Hc. split; [|now apply (kid_not_anc a F R)].
    apply hd_error_split in E. destruct E as [B E].
    destruct (r_kids _ _ R x) as [_ ND]. rewrite E in ND. apply (NoDup_mid c []) in ND. destruct ND as (_ & NB & _).
    apply (reinsert_feq_child a F _ x c (cons c)); auto.
    rewrite E. f_equal. apply (remove_id_mid c [] B); auto.
  - destruct (sibs_split a F R x Lx) as (A & B' & HS).
    destruct (sibs_mid a F R _ _ _ _ HS) as [_ Nx]. rewrite H in Nx. symmetry in Nx.
    apply hd_error_split in Nx. destruct Nx as [B ->].
    destruct (sibs_dseg a F R _ _ HS) as [_ ND].
    assert (EL : A ++ x :: c :: B = (A ++ [x]) ++ c :: B) by (now rewrite <- app_assoc).
    pose proof ND as ND'. apply NoDup_mid in ND'. destruct ND' as (NxA & NxB & _).
    rewrite EL in ND. apply NoDup_mid in ND. destruct ND as (NcA & NcB & _).
    assert (Ic : In c (A ++ x :: c :: B)) by (apply in_or_app; right; right; now left).
    assert (Ix : In x (A ++ x :: c :: B)) by (apply in_elt).
    split.
    + apply (reinsert_feq_sib a F _ _ _ x c (ins_after x c) R HS Ic Ix NE); auto.
      * assert (ER : remove_id c (A ++ x :: c :: B) = A ++ x :: B).
        { rewrite EL, remove_id_mid by auto. now rewrite <- app_assoc. }
        rewrite ER. apply ins_after_mid; auto. intros I. apply NxB. now right.
      * intros l Hl. now apply ins_after_notin.
    + intros (p & Hp & HA). assert (S0 : sibs F (Some p) (kidsf F p)) by reflexivity.
      destruct (sibs_unique a F R _ _ _ _ _ S0 HS Hp Ix) as [_ EK].
      apply (kid_not_anc a F R c p); auto. now rewrite EK.
  - destruct (sibs_split a F R x Lx) as (A' & B & HS).
    destruct (sibs_mid a F R _ _ _ _ HS) as [Pv _]. rewrite H in Pv. symmetry in Pv.
    apply last_error_split in Pv. destruct Pv as [A ->].
    destruct (sibs_dseg a F R _ _ HS) as [_ ND].
    assert (EL : (A ++ [c]) ++ x :: B = A ++ c :: x :: B) by (now rewrite <- app_assoc).
    rewrite EL in HS, ND.
    pose proof ND as ND'. apply NoDup_mid in ND'. destruct ND' as (NcA & NcB & ND2).
    apply NoDup_mid in ND2. destruct ND2 as (NxA & NxB & _).
    assert (Ic : In c (A ++ c :: x :: B)) by (apply in_elt).
    assert (Ix : In x (A ++ c :: x :: B)) by (apply in_or_app; right; right; now left).
    split.
    + apply (reinsert_feq_sib a F _ _ _ x c (ins_before x c) R HS Ic Ix NE); auto.
      * rewrite remove_id_mid by auto. now apply ins_before_mid.
      * intros l Hl. now apply ins_before_notin.
    + intros (p & Hp & HA). assert (S0 : sibs F (Some p) (kidsf F p)) by reflexivity.
      destruct (sibs_unique a F R _ _ _ _ _ S0 HS Hp Ix) as [_ EK].
      apply (kid_not_anc a F R c p); auto. now rewrite EK.
Qed.

Theorem reinsert_noop : forall a F k x c nx, Repr a F -> live a x -> live a c -> x <> c -> node_at a x nx ->
  match k with KAppend => last nx = Some c | KPrepend => first nx = Some c
             | KAfter => next nx = Some c | KBefore => prev nx = Some c end ->
  checked_insert false k x c a = (a, Ok NOk).
Proof.
  intros a F k x c nx R Lx Lc NE Hn Hk. apply node_at_nd in Hn. destruct Hn as [_ <-].
  destruct (reinsert_feq a F k x c R Lx NE Hk) as [FE NW].
  destruct (checked_insert_refines a F k x c R (or_introl Lx) (or_introl Lc)) as [_ H].
  destruct H as (a' & E & R' & S').
  { intros [I|[I|[I|I]]]; auto.
    - now apply (live_not_removed a x).
    - now apply (live_not_removed a c). }
  rewrite E. f_equal. eapply Repr_unique; eauto. eapply Repr_ext; eauto.
Qed.

Print Assumptions detach_refines.
Print Assumptions impossible_dec.
Print Assumptions checked_insert_refines.
Print Assumptions unchecked_insert_refines.
Print Assumptions reinsert_noop.
