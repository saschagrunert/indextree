(* Layer1.v — equational ("symbolic execution") specifications of the link-manipulating
   primitives: under in-range preconditions each of them returns normally and its effect on the
   arena is [amap F], a slot-wise map of per-field updates.  Release semantics (dbg = false). *)
From IT Require Import NodeOps Forest.
From IT.proofs Require Export Basics.
Require Import Lia.
Open Scope mon_scope.
Local Open Scope nat_scope.

Fixpoint mapi_from {A B} (k : nat) (F : nat -> A -> B) (l : list A) : list B :=
  match l with [] => [] | x :: r => F k x :: mapi_from (S k) F r end.
Definition mapi {A B} (F : nat -> A -> B) (l : list A) : list B := mapi_from 0 F l.

Definition nodefun := nat -> node -> node.
Definition amap (F : nodefun) (a : arena) : arena := set_nodes (mapi F (nodes a)) a.
Definition idF : nodefun := fun _ n => n.
Definition comp (G F : nodefun) : nodefun := fun j n => G j (F j n).     (* first F, then G *)
Infix "∘∘" := comp (at level 40, left associativity).

Lemma nth_error_mapi_from : forall A B (F : nat -> A -> B) l k j,
  nth_error (mapi_from k F l) j = option_map (F (k + j)%nat) (nth_error l j).
Proof.
  induction l as [|x r IH]; intros k j; destruct j; cbn; auto.
  - now rewrite Nat.add_0_r.
  - rewrite IH. now replace (S k + j)%nat with (k + S j)%nat by lia.
Qed.

Lemma nth_error_mapi : forall A B (F : nat -> A -> B) l j,
  nth_error (mapi F l) j = option_map (F j) (nth_error l j).
Proof. intros. unfold mapi. now rewrite nth_error_mapi_from. Qed.

Lemma length_mapi_from : forall A B (F : nat -> A -> B) l k, length (mapi_from k F l) = length l.
Proof. induction l; intros; cbn; auto. Qed.
Lemma length_mapi : forall A B (F : nat -> A -> B) l, length (mapi F l) = length l.
Proof. intros; apply length_mapi_from. Qed.

Lemma nth_amap : forall F a j, nth_error (nodes (amap F a)) j = option_map (F j) (nth_error (nodes a) j).
Proof. intros. unfold amap, set_nodes; cbn. apply nth_error_mapi. Qed.

Lemma length_amap : forall F a, length (nodes (amap F a)) = length (nodes a).
Proof. intros. unfold amap, set_nodes; cbn. apply length_mapi. Qed.
Lemma ffree_amap : forall F a, ffree (amap F a) = ffree a. Proof. reflexivity. Qed.
Lemma lfree_amap : forall F a, lfree (amap F a) = lfree a. Proof. reflexivity. Qed.

Lemma arena_ext : forall a b,
  (forall j, nth_error (nodes a) j = nth_error (nodes b) j) -> ffree a = ffree b -> lfree a = lfree b -> a = b.
Proof. intros [na fa la] [nb fb lb] H; cbn in *; intros -> ->. f_equal. now apply list_ext_nth. Qed.

Lemma amap_ext : forall F G a,
  (forall j n, nth_error (nodes a) j = Some n -> F j n = G j n) -> amap F a = amap G a.
Proof.
  intros. apply arena_ext; auto. intros j. rewrite !nth_amap.
  destruct (nth_error (nodes a) j) eqn:E; cbn; auto. f_equal; auto.
Qed.

Lemma amap_amap : forall G F a, amap G (amap F a) = amap (G ∘∘ F) a.
Proof.
  intros. apply arena_ext; auto. intros j. rewrite !nth_amap.
  destruct (nth_error (nodes a) j); reflexivity.
Qed.

Lemma amap_id : forall a, amap idF a = a.
Proof.
  intros. apply arena_ext; auto. intros j. rewrite nth_amap. destruct (nth_error (nodes a) j); reflexivity.
Qed.

Lemma amap_id' : forall F a, (forall j n, F j n = n) -> amap F a = a.
Proof. intros. rewrite <- (amap_id a) at 2. apply amap_ext. intros; apply H. Qed.

Definition fset (x : nid) (f : fld) (v : option nid) : nodefun :=
  fun j n => if Nat.eqb j (idx x) then setf f v n else n.
Definition ofset (o : option nid) (f : fld) (v : option nid) : nodefun :=
  match o with Some x => fset x f v | None => idF end.

Definition fld_eqb (f g : fld) : bool :=
  match f, g with
  | Fparent, Fparent | Fprev, Fprev | Fnext, Fnext | Ffirst, Ffirst | Flast, Flast => true
  | _, _ => false
  end.

Lemma getf_setf : forall f g v n, getf g (setf f v n) = if fld_eqb f g then v else getf g n.
Proof. intros [] [] v n; reflexivity. Qed.
Lemma stamp_setf : forall f v n, stamp (setf f v n) = stamp n. Proof. intros []; reflexivity. Qed.
Lemma data_setf : forall f v n, data (setf f v n) = data n. Proof. intros []; reflexivity. Qed.

Lemma getf_fset : forall x f v g j n,
  getf g (fset x f v j n) = if Nat.eqb j (idx x) && fld_eqb f g then v else getf g n.
Proof. intros. unfold fset. destruct (Nat.eqb j (idx x)); cbn; auto. apply getf_setf. Qed.

(* a node function that only rewrites link fields *)
Definition links_only (F : nodefun) : Prop := forall j n, stamp (F j n) = stamp n /\ data (F j n) = data n.
Lemma links_only_id : links_only idF. Proof. split; reflexivity. Qed.
Lemma links_only_fset : forall x f v, links_only (fset x f v).
Proof. intros x f v j n. unfold fset. destruct (Nat.eqb j (idx x)); auto using stamp_setf, data_setf. Qed.
Lemma links_only_ofset : forall o f v, links_only (ofset o f v).
Proof. intros [x|] f v; cbn; auto using links_only_fset, links_only_id. Qed.
Lemma links_only_comp : forall G F, links_only G -> links_only F -> links_only (G ∘∘ F).
Proof. intros G F HG HF j n. unfold comp. destruct (HG j (F j n)), (HF j n). split; congruence. Qed.

Lemma rd_ok : forall a i n, nth_error (nodes a) i = Some n -> rd i a = (a, Ok n).
Proof. intros. unfold rd. now rewrite H. Qed.

Lemma upd_ok : forall a i n f, nth_error (nodes a) i = Some n ->
  upd i f a = (amap (fun j m => if Nat.eqb j i then f m else m) a, Ok tt).
Proof.
  intros. unfold upd. rewrite H. f_equal. apply arena_ext; auto. intros j.
  rewrite nth_amap. unfold set_nodes; cbn [nodes].
  rewrite (nth_list_set _ _ _ _ _ _ H).
  destruct (Nat.eqb j i) eqn:E.
  - apply Nat.eqb_eq in E; subst. now rewrite H.
  - destruct (nth_error (nodes a) j); reflexivity.
Qed.

Lemma upd_set : forall a i n f, nth_error (nodes a) i = Some n ->
  upd i f a = (set_nodes (list_set i (f n) (nodes a)) a, Ok tt).
Proof. intros. unfold upd. now rewrite H. Qed.

Lemma bind_inv : forall A B (m : M A) (k : A -> M B) a a' r, bind m k a = (a', r) ->
  (exists a1 x, m a = (a1, Ok x) /\ k x a1 = (a', r)) \/
  (exists c, m a = (a', Panic c) /\ r = Panic c) \/ (m a = (a', Diverge) /\ r = Diverge).
Proof.
  intros A B m k a a' r H. unfold bind in H. destruct (m a) as [a1 [x|c|]].
  - left. eauto.
  - right. left. injection H as <- <-. eauto.
  - right. right. injection H as <- <-. eauto.
Qed.

Lemma bind_ok : forall A B (m : M A) (k : A -> M B) a a' x,
  m a = (a', Ok x) -> bind m k a = k x a'.
Proof. intros. unfold bind. now rewrite H. Qed.

Definition inr (a : arena) (x : nid) : Prop := (idx x < length (nodes a))%nat.
Definition oinr (a : arena) (o : option nid) : Prop := match o with Some x => inr a x | None => True end.

Lemma node_inr : forall a x n, nth_error (nodes a) (idx x) = Some n -> inr a x.
Proof. intros. unfold inr. apply nth_error_Some. congruence. Qed.
Lemma inr_amap : forall F a x, inr (amap F a) x <-> inr a x.
Proof. intros. unfold inr. now rewrite length_amap. Qed.
Lemma oinr_amap : forall F a o, oinr (amap F a) o <-> oinr a o.
Proof. intros F a [x|]; cbn; [apply inr_amap | tauto]. Qed.

(* the node stored at x; out of range a blank node, so that lemmas about fields nobody touches
   ([nd_amap_keep]) need no range condition *)
Definition blank : node := fresh_node 0 (NextFree None).
Definition nd (a : arena) (x : nid) : node := nth (idx x) (nodes a) blank.
Lemma nd_at : forall a x n, nth_error (nodes a) (idx x) = Some n -> nd a x = n.
Proof. intros. unfold nd. now apply nth_error_nth. Qed.
Lemma at_nd : forall a x, inr a x -> nth_error (nodes a) (idx x) = Some (nd a x).
Proof. intros a x H. unfold nd. now apply nth_error_nth'. Qed.
Lemma nd_amap : forall F a x, inr a x -> nd (amap F a) x = F (idx x) (nd a x).
Proof.
  intros. apply nd_at. rewrite nth_amap, (at_nd _ _ H). reflexivity.
Qed.

Lemma rdi_ok : forall a x, inr a x -> rdi x a = (a, Ok (nd a x)).
Proof. intros. unfold rdi. apply rd_ok. now apply at_nd. Qed.
Lemma updi_ok : forall a x f v, inr a x -> updi x (setf f v) a = (amap (fset x f v) a, Ok tt).
Proof. intros. unfold updi. erewrite upd_ok by (apply at_nd; eassumption). reflexivity. Qed.

Lemma bind_assoc : forall A B C (m : M A) (k : A -> M B) (k' : B -> M C) a,
  bind (bind m k) k' a = bind m (fun x => bind (k x) k') a.
Proof. intros. unfold bind. destruct (m a) as [a' [x|c|]]; reflexivity. Qed.
Lemma bind_ret : forall A B (x : A) (k : A -> M B) a, bind (ret x) k a = k x a.
Proof. reflexivity. Qed.
Lemma bind_rdi : forall B a x (k : node -> M B), inr a x -> bind (rdi x) k a = k (nd a x) a.
Proof. intros. erewrite bind_ok; [reflexivity | now apply rdi_ok]. Qed.
Lemma bind_updi : forall B a x f v (k : unit -> M B), inr a x ->
  bind (updi x (setf f v)) k a = k tt (amap (fset x f v) a).
Proof. intros. erewrite bind_ok; [reflexivity | now apply updi_ok]. Qed.

Lemma updi2_ok : forall a x f v g w, inr a x ->
  updi x (fun n => setf g w (setf f v n)) a = (amap (fset x g w ∘∘ fset x f v) a, Ok tt).
Proof.
  intros. unfold updi. erewrite upd_ok by (apply at_nd; eassumption). f_equal.
  apply amap_ext. intros j n _. unfold comp, fset. destruct (Nat.eqb j (idx x)); reflexivity.
Qed.
Lemma bind_updi2 : forall B a x f v g w (k : unit -> M B), inr a x ->
  bind (updi x (fun n => setf g w (setf f v n))) k a = k tt (amap (fset x g w ∘∘ fset x f v) a).
Proof. intros. erewrite bind_ok; [reflexivity | now apply updi2_ok]. Qed.

Ltac inr_tac := rewrite ?inr_amap; first [assumption | eassumption].
Ltac mstep1 :=
  first
    [ rewrite bind_assoc
    | rewrite bind_ret
    | rewrite bind_rdi by inr_tac
    | rewrite bind_updi by inr_tac
    | rewrite bind_updi2 by inr_tac ];
  cbv beta.
Ltac msteps := cbn [when_dbg dassert dtriangle expect]; repeat (mstep1; cbn [when_dbg dassert dtriangle expect]).

Lemma nd_out : forall a x, ~ inr a x -> nd a x = blank.
Proof. intros. unfold nd. apply nth_overflow. unfold inr in H. lia. Qed.
Lemma inr_dec : forall a x, inr a x \/ ~ inr a x.
Proof. intros. unfold inr. lia. Qed.
(* a map that leaves a component p of the nodes alone can be looked through without a range condition *)
Lemma nd_amap_keep : forall {A} (p : node -> A) F a x,
  (forall j n, p (F j n) = p n) -> p (nd (amap F a) x) = p (nd a x).
Proof.
  intros. destruct (inr_dec a x) as [I|I].
  - rewrite nd_amap by auto. apply H.
  - rewrite !nd_out; auto. now rewrite inr_amap.
Qed.
Lemma getf_nd_amap : forall F g a x, inr a x ->
  getf g (nd (amap F a) x) = getf g (F (idx x) (nd a x)).
Proof. intros. now rewrite nd_amap. Qed.

Lemma next_nd_keep : forall F a x, (forall j n, next (F j n) = next n) -> next (nd (amap F a) x) = next (nd a x).
Proof. exact (nd_amap_keep next). Qed.
Lemma prev_nd_keep : forall F a x, (forall j n, prev (F j n) = prev n) -> prev (nd (amap F a) x) = prev (nd a x).
Proof. exact (nd_amap_keep prev). Qed.
Lemma parent_nd_keep : forall F a x, (forall j n, parent (F j n) = parent n) -> parent (nd (amap F a) x) = parent (nd a x).
Proof. exact (nd_amap_keep parent). Qed.
Lemma first_nd_keep : forall F a x, (forall j n, first (F j n) = first n) -> first (nd (amap F a) x) = first (nd a x).
Proof. exact (nd_amap_keep first). Qed.
Lemma last_nd_keep : forall F a x, (forall j n, last (F j n) = last n) -> last (nd (amap F a) x) = last (nd a x).
Proof. exact (nd_amap_keep last). Qed.

(* "o names slot j" *)
Definition oat (o : option nid) (j : nat) : bool :=
  match o with Some x => Nat.eqb j (idx x) | None => false end.
Lemma getf_ofset : forall o f v g j n,
  getf g (ofset o f v j n) = if oat o j && fld_eqb f g then v else getf g n.
Proof. intros [x|] f v g j n; cbn; [apply getf_fset | reflexivity]. Qed.
Lemma getf_comp : forall G F g j n, getf g ((G ∘∘ F) j n) = getf g (G j (F j n)).
Proof. reflexivity. Qed.

(* connect_neighbors par pv nx links pv and nx to each other and, if one of them is missing, makes the other an
   end of par: [cn_first] / [cn_last] are the first and last child it writes into par (the old ones where pv / nx
   exist), [cnF] the whole effect, slot by slot *)
Definition cn_first (a : arena) (par pv nx : option nid) : option nid :=
  match pv with
  | Some p => or_else (match par with Some q => first (nd a q) | None => None end) (Some p)
  | None => nx
  end.
Definition cn_last (a : arena) (par pv nx : option nid) : option nid :=
  match nx with
  | Some x => or_else (match par with Some q => last (nd a q) | None => None end) (Some x)
  | None => pv
  end.
Definition cnF (a : arena) (par pv nx : option nid) : nodefun :=
  ofset par Flast (cn_last a par pv nx) ∘∘ ofset par Ffirst (cn_first a par pv nx)
  ∘∘ ofset nx Fprev pv ∘∘ ofset pv Fnext nx.

(* the parent's two ends after connect_neighbors has joined the lists A and B under it *)
Lemma cn_first_gap : forall a p A B, (A <> [] -> first (nd a p) = hd_error A) ->
  cn_first a (Some p) (last_error A) (hd_error B) = hd_error (A ++ B).
Proof.
  intros a p [|z A'] B H; [reflexivity|]. unfold cn_first, last_error. now rewrite H by discriminate.
Qed.
Lemma cn_last_gap : forall a p A B, (B <> [] -> last (nd a p) = last_error B) ->
  cn_last a (Some p) (last_error A) (hd_error B) = last_error (A ++ B).
Proof.
  intros a p A [|w B'] H; [cbn; now rewrite app_nil_r|].
  unfold cn_last. cbn [hd_error]. rewrite H, last_error_app by discriminate. reflexivity.
Qed.

Lemma links_only_cnF : forall a par pv nx, links_only (cnF a par pv nx).
Proof. intros. unfold cnF. apply links_only_comp; [apply links_only_comp; [apply links_only_comp|]|]; apply links_only_ofset. Qed.

Lemma getf_cnF : forall a par pv nx g j n,
  getf g (cnF a par pv nx j n) =
    if oat par j && fld_eqb Flast g then cn_last a par pv nx
    else if oat par j && fld_eqb Ffirst g then cn_first a par pv nx
    else if oat nx j && fld_eqb Fprev g then pv
    else if oat pv j && fld_eqb Fnext g then nx
    else getf g n.
Proof. intros. unfold cnF, comp. now rewrite !getf_ofset. Qed.

(* an update of a slot that may be absent *)
Lemma oupdi_ok : forall A a o f v (r : nid -> A) (r0 : A), oinr a o ->
  match o with Some x => updi x (setf f v) ;;; ret (r x) | None => ret r0 end a
  = (amap (ofset o f v) a, Ok (match o with Some x => r x | None => r0 end)).
Proof.
  intros A a [x|] f v r r0 I; cbn [ofset oinr] in *.
  - msteps. reflexivity.
  - now rewrite amap_id.
Qed.

Lemma cn_ok : forall a par pv nx, oinr a par -> oinr a pv -> oinr a nx ->
  connect_neighbors false par pv nx a = (amap (cnF a par pv nx) a, Ok tt).
Proof.
  intros a par pv nx Hp Hv Hn. unfold connect_neighbors, cnF, cn_first, cn_last.
  destruct par as [p|]; cbn [oinr ofset] in *; msteps.
  all: erewrite bind_ok by (apply oupdi_ok; assumption).
  all: erewrite bind_ok by (apply oupdi_ok; now apply oinr_amap).
  all: msteps. all: now rewrite !amap_amap.
Qed.

(* cnF only looks at the first/last field of the parent slot *)
Lemma cnF_amap_keep : forall F a par pv nx,
  (forall j n, first (F j n) = first n) -> (forall j n, last (F j n) = last n) ->
  cnF (amap F a) par pv nx = cnF a par pv nx.
Proof.
  intros F a par pv nx H1 H2. unfold cnF, cn_first, cn_last.
  destruct par as [q|]; auto.
  now rewrite (first_nd_keep F a q H1), (last_nd_keep F a q H2).
Qed.

Lemma fset_keep : forall x f v g j n, fld_eqb f g = false -> getf g (fset x f v j n) = getf g n.
Proof. intros. rewrite getf_fset, H. now rewrite andb_false_r. Qed.

(* for goals [forall j n, g (fset x f v j n) = g n] where g reads a field other than f *)
Ltac fset_keep_tac := intros; unfold fset; destruct (Nat.eqb _ _); reflexivity.

(* detach_from_siblings f l: cut the run f .. l loose at both ends and join its old neighbours *)
Definition dfsF (a : arena) (f l : nid) : nodefun :=
  cnF a (parent (nd a f)) (prev (nd a f)) (next (nd a l))
  ∘∘ fset l Fnext None ∘∘ fset f Fprev None.

Lemma links_only_dfsF : forall a f l, links_only (dfsF a f l).
Proof.
  intros. unfold dfsF. apply links_only_comp; [apply links_only_comp|]; auto using links_only_cnF, links_only_fset.
Qed.

Lemma dfs_ok : forall a f l, inr a f -> inr a l ->
  oinr a (parent (nd a f)) -> oinr a (prev (nd a f)) -> oinr a (next (nd a l)) ->
  detach_from_siblings false f l a = (amap (dfsF a f l) a, Ok tt).
Proof.
  intros a f l Hf Hl Hp Hv Hn. unfold detach_from_siblings, dfsF. msteps.
  rewrite next_nd_keep by fset_keep_tac.
  erewrite bind_ok by (apply cn_ok; rewrite ?oinr_amap; assumption).
  cbn [when_dbg]. unfold ret. f_equal.
  rewrite !cnF_amap_keep by fset_keep_tac.
  now rewrite !amap_amap.
Qed.

Lemma getf_dfsF : forall a f l g j n,
  getf g (dfsF a f l j n) =
    let par := parent (nd a f) in let pv := prev (nd a f) in let nx := next (nd a l) in
    if oat par j && fld_eqb Flast g then cn_last a par pv nx
    else if oat par j && fld_eqb Ffirst g then cn_first a par pv nx
    else if oat nx j && fld_eqb Fprev g then pv
    else if oat pv j && fld_eqb Fnext g then nx
    else if Nat.eqb j (idx l) && fld_eqb Fnext g then None
    else if Nat.eqb j (idx f) && fld_eqb Fprev g then None
    else getf g n.
Proof. intros. unfold dfsF. rewrite !getf_comp, getf_cnF, !getf_fset. reflexivity. Qed.

(* writing the value a field already holds changes nothing *)
Lemma fset_same : forall a x f v j n,
  nth_error (nodes a) j = Some n -> getf f (nd a x) = v -> fset x f v j n = n.
Proof.
  intros a x f v j n E <-. unfold fset. destruct (Nat.eqb_spec j (idx x)) as [->|]; auto.
  rewrite (nd_at _ _ _ E). destruct f, n; reflexivity.
Qed.

(* on a complete top-level chain f .. l detach_from_siblings changes no field value *)
Lemma dfsF_detached : forall a f l,
  parent (nd a f) = None -> prev (nd a f) = None -> next (nd a l) = None ->
  amap (dfsF a f l) a = a.
Proof.
  intros a f l Hp Hv Hn. unfold dfsF. rewrite Hp, Hv, Hn.
  transitivity (amap idF a); [|apply amap_id]. apply amap_ext. intros j n E. unfold cnF, comp. cbn [ofset]. unfold idF.
  rewrite (fset_same a f Fprev None j n E Hv). apply (fset_same a l Fnext None j n E Hn).
Qed.

(* S is the run reached from o along `next` up to the end of the list: what the loop of rewrite_parents walks.
   Over [nd] (no range condition), because the loop itself panics on a missing slot. *)
Fixpoint next_path (a : arena) (o : option nid) (S : list nid) : Prop :=
  match S with
  | [] => o = None
  | x :: r => o = Some x /\ next_path a (next (nd a x)) r
  end.

(* rewrite_parents: the parent field of every node of S becomes np *)
Definition reparentF (S : list nid) (np : option nid) : nodefun :=
  fun j n => if existsb (Nat.eqb j) (map idx S) then setf Fparent np n else n.

Lemma links_only_reparentF : forall S np, links_only (reparentF S np).
Proof. intros S np j n. unfold reparentF. destruct (existsb _ _); auto using stamp_setf, data_setf. Qed.

Lemma getf_reparentF : forall S np g j n,
  getf g (reparentF S np j n) = if existsb (Nat.eqb j) (map idx S) && fld_eqb Fparent g then np else getf g n.
Proof. intros. unfold reparentF. destruct (existsb _ _); cbn [andb]; auto. apply getf_setf. Qed.

Lemma next_path_transfer : forall a a' S o, (forall s, In s S -> next (nd a' s) = next (nd a s)) ->
  next_path a o S -> next_path a' o S.
Proof.
  intros a a'. induction S as [|x r IH]; intros o H HP; cbn [next_path] in *; auto.
  destruct HP as [-> HP]. split; auto. rewrite H by now left. apply IH; auto.
  intros s Hs. apply H. now right.
Qed.

Lemma reparentF_cons : forall x r np a,
  amap (reparentF r np) (amap (fset x Fparent np) a) = amap (reparentF (x :: r) np) a.
Proof.
  intros. rewrite amap_amap. apply amap_ext. intros j n _. unfold comp, reparentF, fset. cbn [map existsb].
  destruct (Nat.eqb j (idx x)), (existsb (Nat.eqb j) (map idx r)); cbn; auto; destruct n; reflexivity.
Qed.

Lemma reparentF_nil : forall np a, amap (reparentF [] np) a = a.
Proof. intros. apply amap_id'. reflexivity. Qed.

Lemma reparentF_single : forall x np a, amap (reparentF [x] np) a = amap (fset x Fparent np) a.
Proof. intros. rewrite <- reparentF_cons. apply reparentF_nil. Qed.

Lemma next_path_hd : forall a o S, next_path a o S -> o = hd_error S.
Proof. intros a o [|x r] H; [exact H | apply H]. Qed.

Lemma rpl_none : forall fuel np a, rewrite_parents_loop fuel None np a = (a, Ok COk).
Proof. intros [|fuel] np a; reflexivity. Qed.

(* the loop reparents a run S1 of nodes other than np and goes on with what follows it *)
Lemma rpl_prefix : forall S1 S2 fuel a o np,
  next_path a o (S1 ++ S2) -> Forall (inr a) S1 -> length S1 <= fuel ->
  (forall s, In s S1 -> onid_eqb (Some s) np = false) ->
  rewrite_parents_loop fuel o np a =
  rewrite_parents_loop (fuel - length S1) (hd_error S2) np (amap (reparentF S1 np) a).
Proof.
  induction S1 as [|x r IH]; intros S2 fuel a o np HP HI HL HN; cbn [app length] in *.
  - now rewrite reparentF_nil, Nat.sub_0_r, (next_path_hd _ _ _ HP).
  - destruct HP as [-> HP]. destruct fuel as [|fuel]; [lia|].
    cbn [rewrite_parents_loop Nat.sub]. rewrite (HN x) by (now left).
    inversion HI as [|? ? Ix Ir]; subst. msteps.
    rewrite next_nd_keep by fset_keep_tac.
    rewrite (IH S2), reparentF_cons; auto.
    + eapply next_path_transfer; [|exact HP]. intros. apply next_nd_keep. fset_keep_tac.
    + eapply Forall_impl; [|exact Ir]. intros; now apply inr_amap.
    + lia.
    + intros s Hs. apply HN. now right.
Qed.

Lemma rewrite_parents_ok : forall S a f np,
  next_path a (Some f) S -> Forall (inr a) S -> length S <= chain_fuel a ->
  (forall s, In s S -> onid_eqb (Some s) np = false) ->
  rewrite_parents f np a = (amap (reparentF S np) a, Ok COk).
Proof.
  intros S a f np HP HI HL HN. unfold rewrite_parents, get_arena, bind.
  rewrite <- (app_nil_r S) in HP. rewrite (rpl_prefix S []) by assumption. apply rpl_none.
Qed.

Lemma rewrite_parents_self : forall a f, rewrite_parents f (Some f) a = (a, Ok (CErr ParentChildLoop)).
Proof.
  intros. unfold rewrite_parents, get_arena, bind, chain_fuel.
  cbn [rewrite_parents_loop onid_eqb]. now rewrite nid_eqb_refl.
Qed.

(* the error case: the walk stops at the first node equal to the new parent *)
Lemma rewrite_parents_err : forall S1 y S2 a f,
  next_path a (Some f) (S1 ++ y :: S2) -> Forall (inr a) S1 -> length S1 < chain_fuel a -> ~ In y S1 ->
  rewrite_parents f (Some y) a = (amap (reparentF S1 (Some y)) a, Ok (CErr ParentChildLoop)).
Proof.
  intros S1 y S2 a f HP HI HL HN. unfold rewrite_parents, get_arena, bind.
  rewrite (rpl_prefix S1 (y :: S2)); auto; [|lia|].
  - destruct (chain_fuel a - length S1) eqn:K; [lia|].
    cbn [hd_error rewrite_parents_loop onid_eqb]. now rewrite nid_eqb_refl.
  - intros s Hs. apply nid_eqb_neq. intros ->. contradiction.
Qed.

(* two connect_neighbors in a row; the second reads the parent's first/last child as the first left them *)
Definition transplantF (a : arena) (S : list nid) (f l : nid) (par pv nx : option nid) : nodefun :=
  let F1 := cnF a par pv (Some f) ∘∘ reparentF S par in
  cnF (amap F1 a) par (Some l) nx ∘∘ F1.

Lemma links_only_transplantF : forall a S f l par pv nx, links_only (transplantF a S f l par pv nx).
Proof.
  intros. unfold transplantF. apply links_only_comp; [|apply links_only_comp];
    auto using links_only_cnF, links_only_reparentF.
Qed.

Lemma reparentF_keep_first : forall S np j n, first (reparentF S np j n) = first n.
Proof. intros. unfold reparentF. destruct (existsb _ _); reflexivity. Qed.
Lemma reparentF_keep_last : forall S np j n, last (reparentF S np j n) = last n.
Proof. intros. unfold reparentF. destruct (existsb _ _); reflexivity. Qed.
Lemma reparentF_keep_next : forall S np j n, next (reparentF S np j n) = next n.
Proof. intros. unfold reparentF. destruct (existsb _ _); reflexivity. Qed.
Lemma reparentF_keep_prev : forall S np j n, prev (reparentF S np j n) = prev n.
Proof. intros. unfold reparentF. destruct (existsb _ _); reflexivity. Qed.

Lemma transplant_ok : forall a S f l par pv nx,
  next_path a (Some f) S -> Forall (inr a) S -> length S <= chain_fuel a ->
  (forall s, In s S -> onid_eqb (Some s) par = false) ->
  inr a l -> oinr a par -> oinr a pv -> oinr a nx ->
  transplant false f l par pv nx a = (amap (transplantF a S f l par pv nx) a, Ok COk).
Proof.
  intros a S f l par pv nx HP HI HL HN Il Ip Iv In_.
  assert (If : inr a f).
  { eapply Forall_forall; [exact HI|]. apply hd_error_In. symmetry. exact (next_path_hd _ _ _ HP). }
  unfold transplant, transplantF. msteps.
  erewrite bind_ok by (eapply rewrite_parents_ok; eauto).
  cbv beta iota.
  erewrite bind_ok by (apply cn_ok; rewrite ?oinr_amap; cbn [oinr]; rewrite ?inr_amap; assumption).
  erewrite bind_ok by (apply cn_ok; rewrite ?oinr_amap; cbn [oinr]; rewrite ?inr_amap; assumption).
  msteps. unfold ret. f_equal.
  rewrite (cnF_amap_keep (reparentF S par) a) by (intros; first [apply reparentF_keep_first | apply reparentF_keep_last]).
  now rewrite !amap_amap.
Qed.

(* detach x: x alone is cut out of its sibling list and loses its parent *)
Definition detachF (a : arena) (x : nid) : nodefun := fset x Fparent None ∘∘ dfsF a x x.

Lemma links_only_detachF : forall a x, links_only (detachF a x).
Proof. intros. unfold detachF. apply links_only_comp; auto using links_only_fset, links_only_dfsF. Qed.

(* after detach_from_siblings x x the next link of x is clear, unless x was its own previous sibling *)
Lemma dfs_next_clear : forall a x, inr a x -> oat (prev (nd a x)) (idx x) = false ->
  next (nd (amap (dfsF a x x) a) x) = None.
Proof.
  intros a x I H. change (getf Fnext (nd (amap (dfsF a x x) a) x) = None).
  rewrite getf_nd_amap by auto. rewrite getf_dfsF. cbv zeta. cbn [fld_eqb].
  rewrite !andb_false_r, andb_true_r, H, Nat.eqb_refl. reflexivity.
Qed.

Lemma detach_ok : forall a x, inr a x ->
  oinr a (parent (nd a x)) -> oinr a (prev (nd a x)) -> oinr a (next (nd a x)) ->
  oat (prev (nd a x)) (idx x) = false ->
  detach false x a = (amap (detachF a x) a, Ok tt).
Proof.
  intros a x I Hp Hv Hn Hs. unfold detach, detachF.
  erewrite bind_ok by (apply dfs_ok; assumption).
  erewrite bind_ok.
  2:{ apply (rewrite_parents_ok [x]).
      - cbn [next_path]. split; auto. now apply dfs_next_clear.
      - constructor; [now apply inr_amap | constructor].
      - unfold chain_fuel. cbn. lia.
      - reflexivity. }
  msteps. unfold ret. f_equal. rewrite reparentF_single. now rewrite amap_amap.
Qed.

(* insert_with_neighbors c par pv nx: c is cut loose, then transplanted alone into the gap (par, pv, nx) *)
Definition iwnF (a : arena) (c : nid) (par pv nx : option nid) : nodefun :=
  transplantF (amap (dfsF a c c) a) [c] c c par pv nx ∘∘ dfsF a c c.

Lemma links_only_iwnF : forall a c par pv nx, links_only (iwnF a c par pv nx).
Proof. intros. unfold iwnF. apply links_only_comp; auto using links_only_transplantF, links_only_dfsF. Qed.

(* insert_last_unchecked c p: c, already a lone root, is transplanted behind the last child of p *)
Definition iluF (a : arena) (c p : nid) : nodefun :=
  transplantF a [c] c c (Some p) (last (nd a p)) None.

Lemma links_only_iluF : forall a c p, links_only (iluF a c p).
Proof. intros. unfold iluF. apply links_only_transplantF. Qed.

Lemma ilu_ok : forall a c p, inr a c -> inr a p -> oinr a (last (nd a p)) ->
  next (nd a c) = None -> nid_eqb c p = false ->
  insert_last_unchecked false c p a = (amap (iluF a c p) a, Ok tt).
Proof.
  intros a c p Ic Ip Il Hn E. unfold insert_last_unchecked, iluF. msteps.
  erewrite bind_ok.
  2:{ apply (transplant_ok _ [c]); auto.
      - cbn [next_path]. auto.
      - unfold chain_fuel. cbn. lia.
      - intros s [<-|[]]. exact E.
      - exact Logic.I. }
  msteps. reflexivity.
Qed.

Lemma fset_other : forall z f v j n, Nat.eqb j (idx z) = false -> fset z f v j n = n.
Proof. intros. unfold fset. now rewrite H. Qed.
Lemma ofset_other : forall o f v j n, oat o j = false -> ofset o f v j n = n.
Proof. intros [z|] f v j n H; cbn in *; auto using fset_other. Qed.
Lemma cnF_other : forall a par pv nx j n,
  oat par j = false -> oat pv j = false -> oat nx j = false -> cnF a par pv nx j n = n.
Proof. intros. unfold cnF, comp. now rewrite !ofset_other. Qed.
Lemma reparentF_other : forall S np j n, existsb (Nat.eqb j) (map idx S) = false -> reparentF S np j n = n.
Proof. intros. unfold reparentF. now rewrite H. Qed.

Lemma same_shape_amap : forall F a, links_only F -> same_shape a (amap F a).
Proof.
  intros F a H. unfold same_shape. rewrite length_amap. repeat split; auto.
  intros i n E. rewrite nth_amap, E. cbn. exists (F i n). destruct (H i n). auto.
Qed.

Lemma same_shape_refl : forall a, same_shape a a.
Proof. intros a. unfold same_shape. repeat split; auto. intros i n E. eauto. Qed.

Lemma same_shape_trans : forall a b c, same_shape a b -> same_shape b c -> same_shape a c.
Proof.
  intros a b c (L1 & F1 & G1 & H1) (L2 & F2 & G2 & H2). unfold same_shape.
  repeat split; try congruence. intros i n E.
  destruct (H1 i n E) as (n1 & E1 & S1 & D1). destruct (H2 i n1 E1) as (n2 & E2 & S2 & D2).
  exists n2. repeat split; congruence.
Qed.

Lemma same_shape_sym : forall a a', same_shape a a' -> same_shape a' a.
Proof.
  intros a a' (LEN & FF & LF & SH). unfold same_shape. repeat split; try congruence.
  intros i n' E'. destruct (nth_error (nodes a) i) as [n|] eqn:E.
  - destruct (SH i n E) as (m & Em & S & D). rewrite E' in Em. inversion Em; subst m. eauto.
  - apply nth_error_None in E. assert (nth_error (nodes a') i <> None) by congruence.
    apply nth_error_Some in H. lia.
Qed.
