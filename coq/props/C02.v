(* C02 — The forest stays acyclic; every call returns and every iterator is finite.
   For every valid history: parent / sibling walks from any live node are finite duplicate-free
   paths ending in a node without that link, no longer than the number of live nodes; no valid
   call diverges (fuel is never exhausted) in any reachable state; the iterators return (Ok) and
   yield each node (edge) at most once. *)
From IT Require Import Props.
From IT.proofs Require Import Reach StateProps MonitorSound.
From IT.proofs Require ReprTree.

Theorem C02_parent_chain : forall ops, valid_hist false init ops -> forall x, live (ar (reach ops)) x ->
  exists l, ancestors x (ar (reach ops)) = Ok l /\ is_path (ar (reach ops)) parent x l /\ NoDup l /\
            (length l <= length (live_ids (ar (reach ops))))%nat.
Proof.
  intros ops H. destruct (reach_repr ops H) as [F R]. intros x Lx.
  destruct (repr_ancestors _ F x R Lx) as (l & A & B & C & D & _). eauto.
Qed.
Theorem C02_next_sibling_chain : forall ops, valid_hist false init ops -> forall x, live (ar (reach ops)) x ->
  exists l, following_siblings x (ar (reach ops)) = Ok l /\ is_path (ar (reach ops)) next x l /\ NoDup l /\
            (length l <= length (live_ids (ar (reach ops))))%nat.
Proof. intros ops H. destruct (reach_repr ops H) as [F R]. intros x Lx. exact (repr_following _ F x R Lx). Qed.
Theorem C02_prev_sibling_chain : forall ops, valid_hist false init ops -> forall x, live (ar (reach ops)) x ->
  exists l, preceding_siblings x (ar (reach ops)) = Ok l /\ is_path (ar (reach ops)) prev x l /\ NoDup l /\
            (length l <= length (live_ids (ar (reach ops))))%nat.
Proof. intros ops H. destruct (reach_repr ops H) as [F R]. intros x Lx. exact (repr_preceding _ F x R Lx). Qed.
Theorem C02_predecessors_finite : forall ops, valid_hist false init ops -> forall x, live (ar (reach ops)) x ->
  exists l, predecessors x (ar (reach ops)) = Ok l /\ is_path (ar (reach ops)) pred_link x l /\ NoDup l.
Proof. intros ops H. destruct (reach_repr ops H) as [F R]. intros x Lx. exact (repr_predecessors _ F x R Lx). Qed.
Theorem C02_subtree_iterators_finite : forall ops, valid_hist false init ops ->
  forall F x, Repr (ar (reach ops)) F -> live (ar (reach ops)) x ->
  let a := ar (reach ops) in
  let t := ReprTree.treeF (length (nodes a)) F x in
  tree_in a t /\ root t = x /\
  traverse x a = Ok (euler t) /\ reverse_traverse x a = Ok (rev (euler t)) /\
  descendants x a = Ok (ids t) /\ children x a = Ok (kidsf F x) /\ reverse_children x a = Ok (rev (kidsf F x)) /\
  NoDup (euler t) /\ NoDup (ids t).
Proof. intros ops _ F x R Lx. exact (repr_subtree_iterators _ F x R Lx). Qed.
(* every valid call returns: never Diverge; the only panics are the documented refusals *)
Theorem C02_calls_return : forall ops o, valid_hist false init ops -> valid_op (ar (reach ops)) o ->
  snd (step false (reach ops) o) <> OutDiverge /\
  (forall c, snd (step false (reach ops) o) = OutPanic c ->
     c = P_PRECOND /\ ar (fst (step false (reach ops) o)) = ar (reach ops) /\
     match o with OInsert _ false _ _ | OAppendValue _ _ => True | _ => False end).
Proof. exact reach_total. Qed.
Theorem C02_monitor_silent : forall ops, valid_hist false init ops -> c02_check (ar (reach ops)) = [].
Proof. intros ops H. destruct (reach_repr ops H) as [F R]. exact (repr_c02_silent _ F R). Qed.

(* soundness of the monitor for ARBITRARY arenas: silent => all three walks from every live node end *)
Theorem C02_monitor_sound : forall a, c02_check a = [] -> forall x, live a x ->
  (exists l, is_path a parent x l /\ (length l <= length (nodes a))%nat) /\
  (exists l, is_path a next x l /\ (length l <= length (nodes a))%nat) /\
  (exists l, is_path a prev x l /\ (length l <= length (nodes a))%nat).
Proof. exact c02_check_sound. Qed.

Print Assumptions C02_parent_chain.
Print Assumptions C02_monitor_sound.
Print Assumptions C02_next_sibling_chain.
Print Assumptions C02_prev_sibling_chain.
Print Assumptions C02_predecessors_finite.
Print Assumptions C02_subtree_iterators_finite.
Print Assumptions C02_calls_return.
Print Assumptions C02_monitor_silent.
