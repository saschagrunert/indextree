(* SrcTac.v — walking two monadic programs side by side, statement by statement (used by the Src*.v bridging
   proofs): the laws of the state-and-panic monad, stated pointwise in the arena, and the tactic that applies them. *)
From IT Require Export SrcSupport.
From IT.proofs Require Import Layer1.
Open Scope mon_scope.

(* run m, discard its value, return v (ghost results of the model are dropped this way) *)
Definition then_ret {A B} (m : M A) (v : B) : M B :=
  fun a => match m a with
           | (a', Ok _) => (a', Ok v)
           | (a', Panic c) => (a', Panic c)
           | (a', Diverge) => (a', Diverge)
           end.

(* split conjunctions only ([repeat split] also tries [eq_refl] on every equation between two programs) *)
Ltac conjs := repeat match goal with |- _ /\ _ => split end.

(* two programs agree if their first statements agree and the rest agree on whatever the first returns; the
   equation that says how the first statement ran stays available to the rest *)
Lemma bind_ext {A B} (m m' : M A) (k k' : A -> M B) a :
  m a = m' a -> (forall x a', m' a = (a', Ok x) -> k x a' = k' x a') -> bind m k a = bind m' k' a.
Proof. intros Hm Hk. unfold bind. rewrite Hm. destruct (m' a) as [a' [x| |]]; auto. Qed.

Lemma bind_head {A B} (m m' : M A) (k : A -> M B) a : m a = m' a -> bind m k a = bind m' k a.
Proof. intros H. apply bind_ext; auto. Qed.

(* a statement that leaves the arena as it found it: the rest runs from the same arena, and what is known of
   that arena stays true *)
Definition read_only {A} (m : M A) : Prop := forall a, fst (m a) = a.

Lemma ro_ext {A B} (m m' : M A) (k k' : A -> M B) a :
  read_only m' -> m a = m' a -> (forall x, m' a = (a, Ok x) -> k x a = k' x a) -> bind m k a = bind m' k' a.
Proof.
  intros R Hm Hk. apply bind_ext; [exact Hm|]. intros x a' E.
  pose proof (R a) as Ra. rewrite E in Ra. cbn in Ra. subst a'. auto.
Qed.

Lemma ro_ret {A} (x : A) : read_only (ret x).              Proof. intros a; reflexivity. Qed.
Lemma ro_panic {A} c : read_only (@panic A c).             Proof. intros a; reflexivity. Qed.
Lemma ro_lift {A} (f : R A) : read_only (lift f).          Proof. intros a; reflexivity. Qed.
Lemma ro_liftres {A} (r : res A) : read_only (liftres r).  Proof. intros a; reflexivity. Qed.
Lemma ro_rd i : read_only (rd i).
Proof. intros a. unfold rd. destruct (nth_error _ _); reflexivity. Qed.
Lemma ro_if {A} (b : bool) (m1 m2 : M A) : read_only m1 -> read_only m2 -> read_only (if b then m1 else m2).
Proof. destruct b; auto. Qed.
Lemma ro_bind {A B} (m : M A) (k : A -> M B) : read_only m -> (forall x, read_only (k x)) -> read_only (bind m k).
Proof.
  intros Hm Hk a. unfold bind. pose proof (Hm a) as E.
  destruct (m a) as [a' [x| |]]; cbn in E; subst a'; [apply Hk|reflexivity|reflexivity].
Qed.
Create HintDb ro discriminated.
#[export] Hint Constants Opaque : ro.
#[export] Hint Resolve ro_ret ro_panic ro_rd ro_lift ro_liftres ro_if ro_bind : ro.

Lemma bind_ret_tt (m : M unit) a : bind m (fun _ => ret tt) a = m a.
Proof. unfold bind, ret. destruct (m a) as [a' [[]| |]]; reflexivity. Qed.

Lemma bind_then_ret {A B C} (m : M A) (v : B) (k : B -> M C) a :
  bind (then_ret m v) k a = bind m (fun _ => k v) a.
Proof. unfold bind, then_ret. destruct (m a) as [a' [x| |]]; reflexivity. Qed.

Lemma bind_panic {A B} c (k : A -> M B) a : bind (panic c) k a = panic c a.
Proof. reflexivity. Qed.

(* what a slot holds after it has been written *)
Lemma rd_after_upd i f n a a' u : rd i a = (a, Ok n) -> upd i f a = (a', Ok u) -> rd i a' = (a', Ok (f n)).
Proof.
  unfold rd, upd. destruct (nth_error (nodes a) i) as [n'|] eqn:E; [|discriminate].
  intros [= ->] [= <- _]. cbn [nodes set_nodes]. rewrite (nth_list_set _ _ _ _ _ _ E), Nat.eqb_refl. reflexivity.
Qed.

(* one program writes a slot where the other first reads it: both panic alike if the slot is missing *)
Lemma upd_rd {B} i f (k : unit -> M B) (k' : node -> M B) a :
  (forall n, rd i a = (a, Ok n) -> bind (upd i f) k a = k' n a) -> bind (upd i f) k a = bind (rd i) k' a.
Proof.
  intros H. unfold bind at 2. unfold bind, upd, rd in *.
  destruct (nth_error (nodes a) i) as [n|]; [apply (H n eq_refl)|reflexivity].
Qed.

(* two writes of one slot are one write *)
Lemma upd_split {B} i f g (k : unit -> M B) a :
  bind (upd i (fun n => g (f n))) k a = bind (upd i f) (fun _ => bind (upd i g) k) a.
Proof.
  unfold bind, upd. destruct (nth_error (nodes a) i) as [n|] eqn:E; [|reflexivity].
  cbn [nodes set_nodes ffree lfree]. rewrite (nth_list_set _ _ _ _ _ _ E), Nat.eqb_refl, list_set_twice. reflexivity.
Qed.

(* The goal is [P a = Q a], P the regenerated program and Q the model's.  [step] handles the first statement of
   the two programs and leaves the goal in the same form for the rest; [lockstep] repeats it and stops where the
   programs part (a slot read twice by one and once by the other is not parting: reads are remembered).  Every
   statement passed leaves an equation [m a = (a', Ok x)] in the context, for arguments about the arena later on. *)

(* the bridging lemmas proved so far: a call of a regenerated function is rewritten with its lemma *)
Create HintDb src discriminated.
#[export] Hint Constants Opaque : src.

(* rewrite the left / the right program with a law *)
Tactic Notation "lhs" uconstr(L) := (refine (eq_trans L _)).
Tactic Notation "rhs" uconstr(L) := (refine (eq_trans _ (eq_sym L))).

(* projections of arenas and nodes that were built on the way *)
Ltac tidy := cbn beta iota zeta delta [nodes ffree lfree set_nodes set_ffree set_lfree stamp data set_data set_stamp].
(* the debug helpers and the id-indexed accessors in terms of [if], [rd] and [upd]; pairs projected *)
Ltac start := cbv beta iota zeta delta [when_dbg dassert dtriangle rdi updi negb andb orb fst snd].

(* run the first statement of program p where that is a matter of computation *)
Ltac run p :=
  lazymatch p with
  | bind (ret ?x) ?k ?a => change p with (k x a)
  | bind get_arena ?k ?a => change p with (k a a)
  | bind (put_arena ?b) ?k ?a => change p with (k tt b)
  | put_arena ?b ?a => change p with (ret tt b)
  | then_ret ?m ?v ?a => change p with (bind m (fun _ => ret v) a)
  end; tidy.

(* what is known of slot i in arena a: read before, or written since *)
Ltac slot i a :=
  match goal with
  | E : rd i a = (a, Ok _) |- _ => constr:(E)
  | U : upd i _ ?a0 = (a, Ok _) |- _ => let E := slot i a0 in constr:(rd_after_upd _ _ _ _ _ _ E U)
  end.

(* the first statement of the left program is a call that has a lemma in [src] (or an equation in the context) *)
Ltac call :=
  lazymatch goal with
  | |- bind ?m _ ?a = _ =>
      lazymatch m with
      | rd _ => fail | upd _ _ => fail | bind _ _ => fail | match _ with _ => _ end => fail | lift _ => fail
      | _ => idtac
      end;
      let H := fresh in
      eassert (H : m a = _) by (solve [auto with src nocore]);
      lazymatch type of H with
      | _ = (_, Ok _) => lhs (bind_ok _ _ _ _ _ _ _ H)
      | _ => lhs (bind_head _ _ _ _ H)
      end; clear H; start
  end.

(* destruct what the outermost match of t looks at *)
Ltac scrutinee t :=
  lazymatch t with
  | match ?y with _ => _ end => scrutinee y
  | (match ?y with _ => _ end) _ => scrutinee y
  | (match ?y with _ => _ end) _ _ => scrutinee y
  | _ => first [ is_var t; destruct t | destruct t eqn:? ]
  end.

(* two statements with the same head are compared by computation (between a regenerated function and the
   model's, that comparison would unfold both to the end before it fails) *)
Ltac same :=
  let rec head t := lazymatch t with ?f _ => head f | _ => t end in
  lazymatch goal with |- ?p = ?q => let h := head p in let h' := head q in constr_eq h h' end; reflexivity.

Ltac assoc :=
  lazymatch goal with
  | |- bind (bind _ _) _ _ = _ => lhs (bind_assoc _ _ _ _ _ _ _); cbv beta
  | |- _ = bind (bind _ _) _ _ => rhs (bind_assoc _ _ _ _ _ _ _); cbv beta
  end.

Ltac step :=
  lazymatch goal with
  | |- ?p = ?q =>
    first
    [ run p
    | run q
    | lazymatch p with
      | bind (panic _) _ _ => lhs (bind_panic _ _ _)
      | bind (then_ret _ _) _ _ => lhs (bind_then_ret _ _ _ _)
      end
    | lazymatch q with bind (panic _) _ _ => rhs (bind_panic _ _ _) end
    | call
    | lazymatch p with bind (rd ?i) _ ?a => let E := slot i a in lhs (bind_ok _ _ _ _ _ _ _ E); tidy end
    | lazymatch q with bind (rd ?i) _ ?a => let E := slot i a in rhs (bind_ok _ _ _ _ _ _ _ E); tidy end
    | lazymatch goal with
      | |- bind (upd ?i _) _ ?a = bind (rd ?i) _ ?a => refine (upd_rd _ _ _ _ _ _); intros ? ?
      (* the same statement in both, perhaps a compound one that needs a walk of its own; failing that, the
         statements are grouped differently *)
      | |- bind _ _ ?a = bind _ _ ?a =>
          first [ refine (ro_ext _ _ _ _ _ _ _ _);
                  [ solve [auto with ro nocore] | first [ same | solve [repeat step] ] | intros ? ? ]
                | refine (bind_ext _ _ _ _ _ _ _); [ first [ same | solve [repeat step] ] | intros ? ? ? ]
                | assoc ]
      | |- bind (bind _ _) _ _ = _ => assoc
      | |- _ = bind (bind _ _) _ _ => assoc
      | |- (match ?x with _ => _ end) _ = _ => scrutinee x; cbv beta iota zeta
      | |- _ = (match ?x with _ => _ end) _ => scrutinee x; cbv beta iota zeta
      | |- bind _ (fun _ => ret tt) _ = _ => lhs (bind_ret_tt _ _)
      | |- _ = bind _ (fun _ => ret tt) _ => rhs (bind_ret_tt _ _)
      | |- _ => solve [ auto with src nocore | same ]
      end ]
  end.
Ltac lockstep := start; repeat step.

(* Brute force, for small programs over the result types [res] and [R] of the model: unfold everything and
   destruct whatever blocks evaluation, down every path. *)

(* reduce the monad plumbing only: arithmetic and comparisons stay folded *)
Ltac mred :=
  cbv beta iota zeta delta [then_ret bind ret panic diverge when_dbg dassert liftres lift rbind rret rrd rrdi
                            rd rdi get_arena negb andb orb fst snd nodes
                            Bool.eqb is_some or_else option_map].

(* a slot read a second time *)
Ltac use_reads :=
  repeat match goal with
         | H : nth_error ?l ?i = _ |- context [nth_error ?l ?i] => rewrite H
         end.

Tactic Notation "mx_rw" tactic(rw) :=
  repeat (mred; use_reads; try (progress rw; mred); try reflexivity;
          match goal with |- context [match ?x with _ => _ end] => scrutinee x end);
  mred; use_reads; try (progress rw; mred); try reflexivity.
Ltac mx := mx_rw idtac.
