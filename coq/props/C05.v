(* C05 — Impossible inserts are rejected atomically; possible ones never fail or panic.
   In every reachable world, for each of the four checked entry points and every pair of usable
   ids (live, or removed and not yet recycled): the call errs EXACTLY when the request is
   impossible (theories/Forest.v: same node, a removed slot, or the node to insert is an ancestor
   of the place it would go), the reported reason applies, the arena is unchanged; the unchecked
   forms panic exactly then (arena unchanged) and otherwise end in the same arena as the checked
   form; impossibility is decidable, so every call falls under one of the two cases; no other valid
   call panics or diverges.  Stated for release semantics and transferred to debug builds by
   C05_debug_and_release_alike / C05_debug_histories (proofs/DebugProofs.v). *)
From IT Require Import Props.
From IT.proofs Require Import StepMonitor Reach DebugProofs.

Theorem C05_checked_exact_reason_atomic : forall ops k x c F, valid_hist false init ops -> let w := reach ops in
  Repr (ar w) F -> usable (ar w) x -> usable (ar w) c ->
  let out := snd (step false w (OInsert k true x c)) in
  let w' := fst (step false w (OInsert k true x c)) in
  (impossible (ar w) F k x c -> exists e, out = OutErr e /\ reason_applies (ar w) F k x c e /\ ar w' = ar w) /\
  (~ impossible (ar w) F k x c -> out = OutUnit).
Proof. exact reach_checked. Qed.
Theorem C05_unchecked : forall ops k x c F, valid_hist false init ops -> let w := reach ops in
  Repr (ar w) F -> usable (ar w) x -> usable (ar w) c ->
  let out := snd (step false w (OInsert k false x c)) in
  let w' := fst (step false w (OInsert k false x c)) in
  (impossible (ar w) F k x c -> out = OutPanic P_PRECOND /\ ar w' = ar w) /\
  (~ impossible (ar w) F k x c -> out = OutUnit /\ ar w' = ar (fst (step false w (OInsert k true x c)))).
Proof. exact reach_unchecked. Qed.
Theorem C05_impossible_decidable : forall ops k x c F, valid_hist false init ops -> let w := reach ops in
  Repr (ar w) F -> usable (ar w) x -> usable (ar w) c -> impossible (ar w) F k x c \/ ~ impossible (ar w) F k x c.
Proof. intros. eapply ReprInsert.impossible_dec; eauto. Qed.
Theorem C05_others_total : forall ops o, valid_hist false init ops -> let w := reach ops in valid_op (ar w) o ->
  snd (step false w o) <> OutDiverge /\
  (forall c, snd (step false w o) = OutPanic c ->
     c = P_PRECOND /\ ar (fst (step false w o)) = ar w /\
     match o with OInsert _ false _ _ | OAppendValue _ _ => True | _ => False end).
Proof. exact reach_total. Qed.

(* debug and release builds alike: on every valid call in every reachable world the debug build
   (all debug_assert!s, triangle checks and overflow checks active) returns exactly what the release
   build returns — no debug assertion ever fires — so every theorem of this development transfers
   to debug builds, for whole histories *)
Theorem C05_debug_and_release_alike : forall ops o, valid_hist false init ops -> valid_op (ar (reach ops)) o ->
  step true (reach ops) o = step false (reach ops) o.
Proof. intros ops o H Hv. exact (debug_agrees (reach ops) o (reach_WF ops H) Hv). Qed.
Theorem C05_debug_histories : forall ops, valid_hist true init ops ->
  valid_hist false init ops /\ run true ops init = run false ops init.
Proof. exact debug_reachable. Qed.

(* the executable step checker that the correspondence run applies to consecutive states observed on
   the implementation (Monitor.check_step: documented forest operation, outcome vs impossibility,
   atomicity, frame clauses) is silent on EVERY valid step of the model from every reachable world:
   it cannot raise an alarm as long as the implementation behaves like the model *)
Theorem C05_step_monitor_silent : forall ops o, valid_hist false init ops -> valid_op (ar (reach ops)) o ->
  check_step (ar (reach ops)) o (snd (step false (reach ops) o)) (ar (fst (step false (reach ops) o))) = [].
Proof. intros ops o H Hv. exact (check_step_silent (reach ops) o (reach_WF ops H) Hv). Qed.

Print Assumptions C05_checked_exact_reason_atomic.
Print Assumptions C05_step_monitor_silent.
Print Assumptions C05_debug_and_release_alike.
Print Assumptions C05_debug_histories.
Print Assumptions C05_unchecked.
Print Assumptions C05_impossible_decidable.
Print Assumptions C05_others_total.
