(* Reach.v — reachable worlds (any valid history from the empty arena) satisfy the invariant; the insert
   and totality clauses that two property files share, over reachable worlds. *)
From IT Require Import Props.
From IT.proofs Require Import ReprBase Assembly StateProps SerdeProofs.
Require Import Lia.

Definition reach (ops : list op) : world := run false ops init.

Lemma reach_WF : forall ops, valid_hist false init ops -> WF (reach ops).
Proof. exact reachable_WF. Qed.

Lemma reach_repr : forall ops, valid_hist false init ops -> exists F, Repr (ar (reach ops)) F.
Proof. intros ops H. destruct (reach_WF ops H) as [[F HF] _]. eauto. Qed.

Lemma reach_alloc : forall ops, valid_hist false init ops -> AllocOK (reach ops).
Proof. intros ops H. apply (reach_WF ops H). Qed.

(* C05 *)
Lemma reach_checked : forall ops k x c F, valid_hist false init ops -> let w := reach ops in
  Repr (ar w) F -> usable (ar w) x -> usable (ar w) c ->
  let out := snd (step false w (OInsert k true x c)) in
  let w' := fst (step false w (OInsert k true x c)) in
  (impossible (ar w) F k x c -> exists e, out = OutErr e /\ reason_applies (ar w) F k x c e /\ ar w' = ar w) /\
  (~ impossible (ar w) F k x c -> out = OutUnit).
Proof.
  intros ops k x c F H w HF Hx Hc.
  pose proof (step_outcome w (OInsert k true x c) F HF (reach_alloc ops H) (conj Hx Hc)) as [A B].
  split; auto. intros Hn. apply (B Hn).
Qed.

Lemma reach_unchecked : forall ops k x c F, valid_hist false init ops -> let w := reach ops in
  Repr (ar w) F -> usable (ar w) x -> usable (ar w) c ->
  let out := snd (step false w (OInsert k false x c)) in
  let w' := fst (step false w (OInsert k false x c)) in
  (impossible (ar w) F k x c -> out = OutPanic P_PRECOND /\ ar w' = ar w) /\
  (~ impossible (ar w) F k x c -> out = OutUnit /\ ar w' = ar (fst (step false w (OInsert k true x c)))).
Proof.
  intros ops k x c F H w HF Hx Hc.
  pose proof (step_outcome w (OInsert k false x c) F HF (reach_alloc ops H) (conj Hx Hc)) as [A B].
  split; auto. intros Hn. destruct (B Hn) as (P & _ & _ & Q). auto.
Qed.

Lemma reach_total : forall ops o, valid_hist false init ops -> let w := reach ops in valid_op (ar w) o ->
  snd (step false w o) <> OutDiverge /\
  (forall c, snd (step false w o) = OutPanic c ->
     c = P_PRECOND /\ ar (fst (step false w o)) = ar w /\
     match o with OInsert _ false _ _ | OAppendValue _ _ => True | _ => False end).
Proof. intros ops o H w Hv. exact (step_total w o (reach_WF ops H) Hv). Qed.

(* C16: every stamp, in a slot and inside a link id, is an i16 value: the typing side condition of the serde round trip *)
Lemma wf_types_ok : forall w, WF w -> types_ok (ar w).
Proof.
  intros w [[F R] OK]. apply Forall_forall. intros n Hn.
  apply In_nth_error in Hn. destruct Hn as [i Hi].
  assert (I16 : forall j m, nth_error (nodes (ar w)) j = Some m -> in_i16 (stamp m) = true).
  { intros j m Hm. destruct (al_range _ OK j m Hm). apply andb_true_intro. split; now apply Z.leb_le. }
  (* the slot is either removed, and has no links, or live, and then its links name live nodes *)
  assert (Hlink : forall f, oid_ok (getf f n)).
  { intros f. set (x := mkId i (stamp n)). rewrite <- (nd_at (ar w) x n Hi).
    destruct (Z_lt_ge_dec (stamp n) 0) as [Hneg|Hpos].
    - rewrite (dead_links _ F R x f); [exact I | exists n; auto].
    - assert (L : live (ar w) x) by (exists n; cbn; repeat split; auto; lia).
      destruct (getf f (nd (ar w) x)) as [z|] eqn:E; [|exact I].
      destruct (link_live _ F R x f z L E) as (m & Hm & Hs & _). cbn. rewrite <- Hs. exact (I16 _ m Hm). }
  exact (conj (I16 i n Hi) (conj (Hlink Fparent) (conj (Hlink Fprev)
          (conj (Hlink Fnext) (conj (Hlink Ffirst) (Hlink Flast)))))).
Qed.
