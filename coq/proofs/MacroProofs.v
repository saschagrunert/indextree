(* MacroProofs.v — the `tree!` macro builds what the literal says.
   1. [macro_is_reference]: the flatten-and-interpret machinery of MacroModel.v (stack loop, run
      grouping, dropping the useless last run, two-register interpreter) computes exactly the
      reference semantics of MacroSpec.v (plain recursion on the literal).
   2. [reference_builds_literal]: the reference semantics never panics and builds, under the root
      and after its existing children, nodes shaped like the literal, in textual order, with the
      payloads of the literal, evaluating every expression once, and changes nothing else.
   3. [macro_builds_literal]: both together.
   Release semantics (dbg = false). *)
From IT Require Import Props MacroSpec.
From IT.proofs Require Import Layer1 ReprBase Assembly.
From IT.proofs Require AllocProofs AllocProps.
Require Import Lia.
Local Open Scope nat_scope.

(* Induction over forests of literals: a node's children and its right siblings are both smaller
   forests.  Every statement below is about forests, so this one principle serves for all. *)
Section LitsInd.
  Variable P : list lit -> Prop.
  Hypothesis P_nil : P [].
  Hypothesis P_cons : forall e ks ts, P ks -> P ts -> P (L e ks :: ts).

  Fixpoint lit_cons_ind (t : lit) : forall ts, P ts -> P (t :: ts) :=
    match t with L e ks => fun ts => P_cons e ks ts (list_ind P P_nil (fun k r => lit_cons_ind k r) ks) end.

  Lemma lits_ind : forall ts, P ts.
  Proof. induction ts as [|t r IH]; [exact P_nil | exact (lit_cons_ind t r IH)]. Qed.
End LitsInd.

Lemma lit_size_L : forall e ks, lit_size (L e ks) = S (lits_size ks).
Proof. reflexivity. Qed.

(* the actions a literal node stands for: append it; if it has children, step into it, emit the
   children, step back out *)
Fixpoint acts_of (t : lit) : list action :=
  match t with
  | L e ks =>
      match ks with
      | [] => [AAppend e]
      | _ :: _ => AAppend e :: ANest :: flat_map acts_of ks ++ [AParent]
      end
  end.

Definition acts_item (i : lit + unit) : list action :=
  match i with inl t => acts_of t | Datatypes.inr _ => [AParent] end.

(* a stack item is off the stack after at most this many iterations *)
Definition weight (i : lit + unit) : nat :=
  match i with inl t => 2 * lit_size t | Datatypes.inr _ => 1 end.

Lemma flat_map_acts_inl : forall l, flat_map acts_item (map inl l) = flat_map acts_of l.
Proof. exact (flat_map_map inl acts_item). Qed.

Lemma weight_inl : forall l, list_sum (map weight (map inl l)) = 2 * lits_size l.
Proof.
  induction l as [|t r IH]; [reflexivity|].
  rewrite !map_cons, list_sum_cons, IH. cbn [weight].
  change (lits_size (t :: r)) with (lit_size t + lits_size r). lia.
Qed.

Lemma flatten_loop_spec : forall fuel stack acc,
  list_sum (map weight stack) <= fuel ->
  flatten_loop fuel stack acc = Some (acc ++ flat_map acts_item stack).
Proof.
  induction fuel as [|f IH]; intros [|item rest] acc H; cbn [flatten_loop flat_map];
    try (now rewrite app_nil_r); rewrite map_cons, list_sum_cons in H.
  - (* out of fuel: but every item weighs at least 1 *)
    destruct item as [[e ks]|[]]; cbn [weight] in H; [rewrite lit_size_L in H|]; lia.
  - destruct item as [[e ks]|[]]; cbn [weight] in H.
    + rewrite lit_size_L in H. destruct ks as [|k ks]; rewrite IH.
      * cbn [acts_item acts_of]. now rewrite <- app_assoc.
      * lia.
      * rewrite flat_map_app, flat_map_acts_inl.
        change (acts_item (inl (L e (k :: ks))))
          with (AAppend e :: ANest :: flat_map acts_of (k :: ks) ++ [AParent]).
        generalize (flat_map acts_of (k :: ks)). intros body.
        cbn [flat_map acts_item app]. rewrite <- !app_assoc. reflexivity.
      * (* the children and the marker weigh one less than the node *)
        rewrite map_app, list_sum_app, weight_inl, map_cons, list_sum_cons. cbn [weight]. lia.
    + rewrite IH; [|lia]. cbn [acts_item]. now rewrite <- app_assoc.
Qed.

Lemma concat_group_runs : forall l, concat (group_runs l) = l.
Proof.
  induction l as [|x t IH]; [reflexivity|].
  cbn [group_runs]. destruct (group_runs t) as [|[|y ys] gs].
  - cbn in *. now rewrite <- IH.
  - cbn in *. now rewrite <- IH.
  - destruct (same_kind x y); cbn in *; now rewrite <- IH.
Qed.

Lemma parent_runs : forall l,
  Forall (fun g => is_parent_run g = true -> g = repeat AParent (length g)) (group_runs l).
Proof.
  induction l as [|x t IH]; [constructor|]. cbn [group_runs].
  assert (X : is_parent_run [x] = true -> [x] = repeat AParent (length [x]))
    by (destruct x; (discriminate || reflexivity)).
  destruct (group_runs t) as [|[|y ys] gs]; try (constructor; assumption).
  destruct (same_kind x y) eqn:E; [|constructor; assumption].
  inversion IH as [|g gs' Hg Hgs]; subst. constructor; [|assumption].
  intros P. destruct x, y; try discriminate. cbn [length repeat]. f_equal. now apply Hg.
Qed.

(* dropping the useless last run only removes trailing [AParent]s *)
Lemma drop_last_spec : forall l, exists k, l = concat (drop_useless_last (group_runs l)) ++ repeat AParent k.
Proof.
  intros l. pose proof (concat_group_runs l) as C. pose proof (parent_runs l) as OK.
  unfold drop_useless_last. destruct (rev (group_runs l)) as [|g r] eqn:E.
  - exists 0. cbn [repeat]. now rewrite app_nil_r.
  - destruct (is_parent_run g) eqn:P.
    + assert (G : group_runs l = rev r ++ [g]).
      { rewrite <- (rev_involutive (group_runs l)), E. reflexivity. }
      exists (length g). rewrite G in OK. apply Forall_app in OK. destruct OK as [_ OK].
      inversion OK as [|g' l' Hg _]; subst. rewrite <- (Hg P).
      rewrite <- C at 1. rewrite G, concat_app. cbn [concat]. now rewrite app_nil_r.
    + exists 0. cbn [repeat]. now rewrite app_nil_r.
Qed.

Theorem flatten_spec : forall nodes, exists acts k,
  flatten nodes = Some acts /\ flat_map acts_of nodes = acts ++ repeat AParent k.
Proof.
  intros nodes. unfold flatten. rewrite flatten_loop_spec.
  - cbn [app]. rewrite flat_map_acts_inl.
    destruct (drop_last_spec (flat_map acts_of nodes)) as [k Hk].
    eexists. exists k. split; [reflexivity | exact Hk].
  - rewrite weight_inl. lia.
Qed.

Lemma exec_app : forall l1 l2 s a,
  exec_actions false (l1 ++ l2) s a = bind (exec_actions false l1 s) (exec_actions false l2) a.
Proof.
  induction l1 as [|x l1 IH]; intros l2 s a; [reflexivity|].
  cbn [app exec_actions]. unfold bind at 1 3. unfold bind at 1.
  destruct (exec_action false x s a) as [a1 [s1|c|]]; auto. rewrite IH. reflexivity.
Qed.

Lemma exec_app_ok : forall l1 l2 s a a1 s1, exec_actions false l1 s a = (a1, Ok s1) ->
  exec_actions false (l1 ++ l2) s a = exec_actions false l2 s1 a1.
Proof. intros. rewrite exec_app. unfold bind. now rewrite H. Qed.

Lemma exec_append : forall e s a a' x, append_value false (m_node s) e a = (a', Ok x) ->
  exec_action false (AAppend e) s a = (a', Ok (mkMState (m_node s) (Some x) (m_log s ++ [e]) (m_new s ++ [x]))).
Proof. intros. cbn [exec_action]. erewrite bind_ok by eassumption. reflexivity. Qed.

Lemma exec_nest : forall s a l, m_last s = Some l ->
  exec_action false ANest s a = (a, Ok (mkMState l (Some l) (m_log s) (m_new s))).
Proof. intros s a l H. cbn [exec_action]. rewrite H. reflexivity. Qed.

Lemma exec_parent : forall s a n p, get a (m_node s) = Some n -> parent n = Some p ->
  exec_action false AParent s a = (a, Ok (mkMState p (m_last s) (m_log s) (m_new s))).
Proof.
  intros s a n p H1 H2. cbn [exec_action]. unfold bind, get_arena. rewrite H1, H2. reflexivity.
Qed.

(* stepping out only moves the [__node] register, so the trailing run that [flatten] drops is not
   observable in the result *)
Lemma exec_parent_inv : forall s a a' s', exec_action false AParent s a = (a', Ok s') ->
  a' = a /\ m_log s' = m_log s /\ m_new s' = m_new s.
Proof.
  intros s a a' s' H. cbn [exec_action] in H. unfold bind, get_arena in H.
  destruct (get a (m_node s)) as [n|]; [|discriminate].
  destruct (parent n); [|discriminate]. unfold ret in H. inversion H; subst. auto.
Qed.

Lemma exec_parents_inv : forall k s a a' s', exec_actions false (repeat AParent k) s a = (a', Ok s') ->
  a' = a /\ m_log s' = m_log s /\ m_new s' = m_new s.
Proof.
  induction k as [|k IH]; intros s a a' s' H.
  - cbn in H. inversion H; subst. auto.
  - cbn [repeat exec_actions] in H. unfold bind in H.
    destruct (exec_action false AParent s a) as [a1 [s1|c|]] eqn:E; try discriminate.
    apply exec_parent_inv in E. destruct E as (-> & E1 & E2).
    apply IH in H. destruct H as (-> & H1 & H2). split; auto. split; congruence.
Qed.

(* [runs acts p a a' lg nw]: from any state whose [__node] is p, in arena a, the actions run without
   panic to arena a', come back to [__node] = p, and add lg to the log and nw to the created ids *)
Definition runs (acts : list action) (p : nid) (a a' : arena) (lg : list N) (nw : list nid) : Prop :=
  forall s, m_node s = p ->
    exists s', exec_actions false acts s a = (a', Ok s') /\
      m_node s' = p /\ m_log s' = m_log s ++ lg /\ m_new s' = m_new s ++ nw.

Lemma runs_nil : forall p a, runs [] p a a [] [].
Proof. intros p a s Hs. exists s. rewrite !app_nil_r. auto. Qed.

Lemma runs_app : forall l1 l2 p a a1 a2 lg1 lg2 nw1 nw2,
  runs l1 p a a1 lg1 nw1 -> runs l2 p a1 a2 lg2 nw2 -> runs (l1 ++ l2) p a a2 (lg1 ++ lg2) (nw1 ++ nw2).
Proof.
  intros l1 l2 p a a1 a2 lg1 lg2 nw1 nw2 H1 H2 s Hs.
  destruct (H1 s Hs) as (s1 & E1 & N1 & L1 & W1).
  destruct (H2 s1 N1) as (s2 & E2 & N2 & L2 & W2).
  exists s2. erewrite exec_app_ok by exact E1. split; auto. split; auto.
  rewrite L2, L1, W2, W1, !app_assoc. auto.
Qed.

(* one literal node: the append; for a node with children also the way in, the children's actions
   and the way out, which needs the new node's parent link to be intact after the children *)
Lemma runs_lit : forall e ks p x a a1 a2 lg nw n,
  append_value false p e a = (a1, Ok x) ->
  runs (flat_map acts_of ks) x a1 a2 lg nw ->
  get a2 x = Some n -> parent n = Some p ->
  runs (acts_of (L e ks)) p a a2 (e :: lg) (x :: nw).
Proof.
  intros e ks p x a a1 a2 lg nw n E B G P s Hs.
  pose proof (exec_append e s a a1 x) as EA. rewrite Hs in EA. specialize (EA E).
  destruct (B (mkMState x (Some x) (m_log s ++ [e]) (m_new s ++ [x])) eq_refl) as (s3 & E3 & N3 & L3 & W3).
  cbn [m_log m_new] in L3, W3. rewrite <- app_assoc in L3, W3.
  destruct ks as [|k ks]; cbn [acts_of exec_actions]; erewrite bind_ok by exact EA.
  - cbn [flat_map exec_actions] in E3. injection E3 as <- <-.
    eexists. split; [reflexivity|]. cbn [m_node]. auto.
  - erewrite bind_ok by (apply exec_nest; reflexivity). cbn [m_log m_new].
    erewrite exec_app_ok by exact E3. cbn [exec_actions].
    erewrite bind_ok by (eapply exec_parent; [rewrite N3; exact G | exact P]).
    eexists. split; [reflexivity|]. cbn [m_node m_log m_new]. auto.
Qed.

Lemma has_payload_iff : forall a x e, has_payload a x e <-> payload_of_id a x = Some e.
Proof.
  intros a x e. unfold has_payload, payload_of_id. split.
  - intros (n & -> & ->). reflexivity.
  - destruct (nth_error (nodes a) (idx x)) as [n|]; [|discriminate].
    destruct (data n) eqn:D; [|discriminate]. intros H. inversion H; subst. eauto.
Qed.

(* from a to a' every live node stays live and keeps its payload, and the ids of l are created *)
Record extends (a a' : arena) (l : list nid) : Prop := {
  ext_old : forall y, live a y -> live a' y /\ payload_of_id a' y = payload_of_id a y;
  ext_new : forall y, In y l -> ~ live a y /\ live a' y }.
Arguments ext_old {a a' l}.
Arguments ext_new {a a' l}.

Lemma extends_refl : forall a, extends a a [].
Proof. intros a. split; [auto | intros y []]. Qed.

Lemma extends_trans : forall a b c l1 l2, extends a b l1 -> extends b c l2 -> extends a c (l1 ++ l2).
Proof.
  intros a b c l1 l2 [G1 N1] [G2 N2]. split.
  - intros y L. destruct (G1 y L) as [L1 E1]. destruct (G2 y L1) as [L2 E2]. split; [exact L2 | congruence].
  - intros y Hy. apply in_app_or in Hy. destruct Hy as [Hy|Hy].
    + destruct (N1 y Hy) as [A B]. split; [exact A | now apply G2].
    + destruct (N2 y Hy) as [A B]. split; [|exact B]. intros L. apply A. now apply G1.
Qed.

(* one allocation; a' is the arena after whatever relinking follows it *)
Lemma alloc_extends : forall w v a1 x a', AllocOK w ->
  new_node false v (ar w) = (a1, Ok x) -> same_shape a1 a' ->
  extends (ar w) a' [x] /\ payload_of_id a' x = Some v.
Proof.
  intros w v a1 x a' OK E S.
  pose proof (fun y => AllocProofs.new_node_slot w v a1 x y OK E) as Hnl.
  destruct (al_free _ OK) as (FL & FO).
  destruct (AllocProofs.new_node_spec w v FL OK FO) as (a0 & x0 & E0 & _ & LX & HX & HO & _).
  rewrite E in E0. injection E0 as <- <-.
  split; [split|].
  - intros y L. split.
    + apply (live_same_shape _ _ y S). destruct L as (n & Hn & G). exists n. split; [|exact G].
      unfold node_at. rewrite HO; [exact Hn | apply Hnl; exists n; auto].
    + rewrite (AllocProps.payload_same_shape _ _ y S). exact (AllocProps.payload_new_node w v a1 _ y OK E L).
  - intros y [<-|[]]. split; [intros L; exact (Hnl x L eq_refl) | now apply (live_same_shape _ _ x S)].
  - rewrite (AllocProps.payload_same_shape _ _ x S), (AllocProps.payload_node _ _ _ HX). reflexivity.
Qed.

Lemma new_step : forall w F v, Repr (ar w) F -> AllocOK w ->
  exists w' x, new_node false v (ar w) = (ar w', Ok x) /\ Repr (ar w') (f_new x F) /\ AllocOK w' /\
    extends (ar w) (ar w') [x] /\ payload_of_id (ar w') x = Some v.
Proof.
  intros w F v R OK. destruct (new_full w F v R OK) as (a' & x & E & R' & _ & _ & _ & OK').
  destruct (alloc_extends w v a' x a' OK E (same_shape_refl a')) as [X HP].
  exists (mkWorld a' (issued w ++ [x]) (removed w) (dropped w)), x. auto.
Qed.

Lemma append_step : forall w F p v, Repr (ar w) F -> AllocOK w -> live (ar w) p ->
  exists w' x, append_value false p v (ar w) = (ar w', Ok x) /\
    Repr (ar w') (f_append_value p x F) /\ AllocOK w' /\
    extends (ar w) (ar w') [x] /\ payload_of_id (ar w') x = Some v.
Proof.
  intros w F p v R OK Lp.
  destruct (append_full w F p v R OK Lp) as (a1 & a' & x & E1 & E & _ & R' & _ & S & _ & _ & _ & _ & _ & OK').
  destruct (alloc_extends w v a1 x a' OK E1 S) as [X HP].
  exists (mkWorld a' (issued w ++ [x]) (removed w) (dropped w)), x. auto.
Qed.

Lemma subtree_root_in : forall t s, subtree_of t s -> In (root s) (ids t).
Proof.
  induction 1 as [t|x ks k s Hk _ IH].
  - destruct t. cbn. auto.
  - cbn [ids]. right. apply in_flat_map. eauto.
Qed.

Lemma pays_mono : forall a a' ts trs,
  (forall y, In y (flat_map ids trs) -> payload_of_id a' y = payload_of_id a y) ->
  payloads_match a ts trs -> payloads_match a' ts trs.
Proof.
  intros a a' ts. induction ts as [|e ks ts IHk IHt] using lits_ind; intros trs Hy H;
    inversion H as [|t tr ts' trs' Ht Hts]; subst; constructor.
  - inversion Ht as [e' ks' x kts HP HF]; subst. cbn [flat_map ids app] in Hy. constructor.
    + apply has_payload_iff. rewrite Hy by now left. now apply has_payload_iff.
    + apply IHk; [|exact HF]. intros y Hk. apply Hy. right. apply in_or_app. now left.
  - apply IHt; [|exact Hts]. intros y Hk. apply Hy. cbn [flat_map]. apply in_or_app. now right.
Qed.

(* F' is F with the trees trs hung under p after p's children *)
Definition grafted (F F' : forest) (p : nid) (trs : list rose) : Prop :=
  kidsf F' p = kidsf F p ++ map root trs /\
  (forall t x ts', In t trs -> subtree_of t (T x ts') -> kidsf F' x = map root ts') /\
  (forall q, q <> p -> ~ In q (flat_map ids trs) -> kidsf F' q = kidsf F q) /\
  tops F' = tops F.

Lemma grafted_nil : forall F p, grafted F F p [].
Proof.
  intros F p. unfold grafted. cbn [map]. rewrite app_nil_r.
  split; [reflexivity|]. split; [intros t x ts' []|]. split; reflexivity.
Qed.

Lemma grafted_app : forall F F1 F2 p trs1 trs2,
  (forall x, In x (flat_map ids trs1) -> x <> p /\ ~ In x (flat_map ids trs2)) ->
  grafted F F1 p trs1 -> grafted F1 F2 p trs2 -> grafted F F2 p (trs1 ++ trs2).
Proof.
  intros F F1 F2 p trs1 trs2 D (K1 & T1 & O1 & P1) (K2 & T2 & O2 & P2).
  unfold grafted. rewrite flat_map_app.
  split; [rewrite K2, K1, map_app, app_assoc; reflexivity|].
  split; [|split; [|congruence]].
  - intros t x ts' Ht Hs. apply in_app_or in Ht. destruct Ht as [Ht|Ht]; [|eapply T2; eauto].
    assert (Hx : In x (flat_map ids trs1)).
    { apply in_flat_map. exists t. split; [exact Ht | exact (subtree_root_in t (T x ts') Hs)]. }
    destruct (D x Hx) as [Dp D2]. rewrite O2 by assumption. eapply T1; eauto.
  - intros q Hq Hn. rewrite O2, O1; auto; intros H; apply Hn; apply in_or_app; auto.
Qed.

(* the tree T x trs, when x has just been appended under p and trs then hung under x *)
Lemma grafted_node : forall F F3 p x trs,
  kidsf F x = [] -> p <> x -> ~ In p (flat_map ids trs) ->
  grafted (f_append_value p x F) F3 x trs -> grafted F F3 p [T x trs].
Proof.
  intros F F3 p x trs Kx NE Np (K3 & T3 & O3 & P3).
  assert (Exp : nid_eqb x p = false) by (apply nid_eqb_neq; congruence).
  unfold grafted. cbn [flat_map map root ids]. rewrite !app_nil_r.
  split; [|split; [|split; [|exact P3]]].
  - rewrite O3 by auto. cbn [f_append_value kidsf]. now rewrite nid_eqb_refl.
  - intros t x' ts' [<-|[]] Hs. inversion Hs as [t0|x0 ks0 k s Hk Hks]; subst.
    + rewrite K3. cbn [f_append_value kidsf]. rewrite Exp, Kx. reflexivity.
    + eapply T3; eauto.
  - intros q Hq Hn. rewrite O3.
    + cbn [f_append_value kidsf]. now rewrite (nid_eqb_neq q p Hq).
    + intros ->. apply Hn. now left.
    + intros H. apply Hn. now right.
Qed.

(* from arena a and forest F to a' and F': the literals ts have become the trees trs under p *)
Definition built (a : arena) (F : forest) (p : nid) (ts : list lit)
                 (a' : arena) (trs : list rose) (F' : forest) : Prop :=
  Forall2 shaped ts trs /\ grafted F F' p trs /\
  extends a a' (flat_map ids trs) /\ payloads_match a' ts trs.

Lemma built_nil : forall a F p, built a F p [] a [] F.
Proof.
  intros a F p. split; [constructor|]. split; [apply grafted_nil|]. split; [apply extends_refl | constructor].
Qed.

Lemma built_app : forall a F p ts1 ts2 a1 trs1 trs2 F1 a2 F2, live a p ->
  built a F p ts1 a1 trs1 F1 -> built a1 F1 p ts2 a2 trs2 F2 ->
  built a F p (ts1 ++ ts2) a2 (trs1 ++ trs2) F2.
Proof.
  intros a F p ts1 ts2 a1 trs1 trs2 F1 a2 F2 Lp (S1 & G1 & X1 & M1) (S2 & G2 & X2 & M2).
  unfold built. rewrite flat_map_app.
  split; [now apply Forall2_app|]. split; [|split; [exact (extends_trans _ _ _ _ _ X1 X2)|]].
  - apply (grafted_app F F1); auto. intros x Hx. destruct (ext_new X1 x Hx) as [NL L1]. split.
    + intros ->. contradiction.
    + intros Hx2. now apply (ext_new X2 x Hx2).
  - apply Forall2_app; [|exact M2]. apply (pays_mono a1); [|exact M1].
    intros y Hy. apply (ext_old X2), (ext_new X1), Hy.
Qed.

Lemma built_node : forall a F p e ks a2 x a3 trs F3,
  Repr a F -> live a p ->
  extends a a2 [x] -> payload_of_id a2 x = Some e ->
  built a2 (f_append_value p x F) x ks a3 trs F3 ->
  built a F p [L e ks] a3 [T x trs] F3.
Proof.
  intros a F p e ks a2 x a3 trs F3 R Lp X2 HP (S3 & G3 & X3 & M3).
  destruct (ext_new X2 x (or_introl eq_refl)) as [NL Lx].
  unfold built. cbn [flat_map]. rewrite app_nil_r.
  split; [repeat constructor; exact S3|].
  split; [|split; [exact (extends_trans _ _ _ _ _ X2 X3)|]].
  - apply grafted_node; [eapply kids_not_live; eauto | | | exact G3].
    + intros ->. contradiction.
    + intros H. apply (ext_new X3 p H). now apply (ext_old X2).
  - repeat constructor; [|exact M3].
    apply has_payload_iff. rewrite (proj2 (ext_old X3 x Lx)). exact HP.
Qed.

(* the anonymous loop inside [ref_node], under a name: it is [ref_forest] *)
Definition ref_go (dbg : bool) (x : nid) : list lit -> M (list nid * list N) :=
  fix go (l : list lit) : M (list nid * list N) :=
    match l with
    | [] => ret ([], [])
    | k :: rest =>
        r1 <- ref_node dbg x k ;;
        r2 <- go rest ;;
        ret (fst r1 ++ fst r2, snd r1 ++ snd r2)
    end.

Lemma ref_go_eq : forall dbg x ks a, ref_go dbg x ks a = ref_forest dbg x ks a.
Proof.
  induction ks as [|k ks IH]; intros a; [reflexivity|].
  change (ref_go dbg x (k :: ks))
    with (r1 <- ref_node dbg x k ;; r2 <- ref_go dbg x ks ;; ret (fst r1 ++ fst r2, snd r1 ++ snd r2)).
  cbn [ref_forest]. unfold bind.
  destruct (ref_node dbg x k a) as [a1 [r1|c|]]; auto. rewrite IH. reflexivity.
Qed.

Lemma ref_node_eq : forall dbg p e ks a,
  ref_node dbg p (L e ks) a
  = (x <- append_value dbg p e ;; r <- ref_forest dbg x ks ;; ret (x :: fst r, e :: snd r)) a.
Proof.
  intros dbg p e ks a.
  change (ref_node dbg p (L e ks))
    with (x <- append_value dbg p e ;; r <- ref_go dbg x ks ;; ret (x :: fst r, e :: snd r)).
  unfold bind at 1 3. destruct (append_value dbg p e a) as [a1 [x|c|]]; auto.
  unfold bind. rewrite ref_go_eq. reflexivity.
Qed.

(* a list of literal nodes under p: the reference semantics succeeds and builds the nodes, and the
   interpreter run on the corresponding actions does the same *)
Theorem forest_spec : forall ts w F p, Repr (ar w) F -> AllocOK w -> live (ar w) p ->
  exists w' trs F',
    ref_forest false p ts (ar w) = (ar w', Ok (flat_map ids trs, flat_map lit_preorder ts)) /\
    Repr (ar w') F' /\ AllocOK w' /\ built (ar w) F p ts (ar w') trs F' /\
    runs (flat_map acts_of ts) p (ar w) (ar w') (flat_map lit_preorder ts) (flat_map ids trs).
Proof.
  induction ts as [|e ks ts IHk IHt] using lits_ind; intros w F p R OK Lp.
  { exists w, [], F. split; [reflexivity|]. split; [exact R|]. split; [exact OK|].
    split; [apply built_nil | apply runs_nil]. }
  destruct (append_step w F p e R OK Lp) as (w2 & x & E & R2 & OK2 & X2 & HP).
  assert (Lx : live (ar w2) x) by (apply (ext_new X2); now left).
  destruct (IHk w2 _ x R2 OK2 Lx) as (w3 & trs & F3 & E3 & R3 & OK3 & B3 & RN3).
  assert (B : built (ar w) F p [L e ks] (ar w3) [T x trs] F3) by (eapply built_node; eauto).
  pose proof B as (_ & (K & _) & X3 & _).
  destruct (IHt w3 F3 p R3 OK3 (proj1 (ext_old X3 p Lp))) as (w4 & trs' & F4 & E4 & R4 & OK4 & B4 & RN4).
  exists w4, (T x trs :: trs'), F4. split; [|split; [exact R4|split; [exact OK4|split]]].
  - cbn [ref_forest]. unfold bind at 1. rewrite ref_node_eq.
    erewrite bind_ok by exact E. erewrite bind_ok by exact E3. unfold ret at 1.
    erewrite bind_ok by exact E4. reflexivity.
  - exact (built_app _ _ _ [L e ks] _ _ [T x trs] _ _ _ _ Lp B B4).
  - assert (Hx : In x (kidsf F3 p)) by (rewrite K; apply in_elt).
    cbn [flat_map]. eapply runs_app; [|exact RN4].
    apply runs_lit with (a1 := ar w2) (n := nd (ar w3) x); [exact E | exact RN3 | |].
    + apply at_nd, live_inr. eapply kid_live; eauto.
    + eapply kid_parent; eauto.
Qed.

(* what both programs return and what the arena then represents, for either root form *)
Definition literal_built (w : world) (F : forest) (root : rootform) (nodes : list lit)
    (a' : arena) (r : nid) (log : list N) (new : list nid) (trees : list rose) (F' : forest) : Prop :=
  (match root with
   | RootId r0 => r = r0 /\ log = flat_map lit_preorder nodes /\ new = flat_map ids trees
   | RootValue v => ~ live (ar w) r /\ log = v :: flat_map lit_preorder nodes /\ new = r :: flat_map ids trees
   end) /\
  Forall2 shaped nodes trees /\
  Repr a' F' /\
  kidsf F' r = kidsf F r ++ map Spec.root trees /\
  (forall t x ts, In t trees -> subtree_of t (T x ts) -> kidsf F' x = map Spec.root ts) /\
  (forall p, p <> r -> ~ In p (flat_map ids trees) -> kidsf F' p = kidsf F p) /\
  (forall y, In y (flat_map ids trees) -> ~ live (ar w) y /\ live a' y) /\
  (forall y, live (ar w) y -> live a' y /\ payload_of_id a' y = payload_of_id (ar w) y) /\
  payloads_match a' nodes trees.

(* both programs start by evaluating the root expression *)
Definition root_prog (root : rootform) : M (nid * list N * list nid) :=
  match root with RootId r => ret (r, [], []) | RootValue v => x <- new_node false v ;; ret (x, [v], [x]) end.

Lemma tree_reference_ok : forall {root nodes a a1 a' r log0 new0 new log},
  root_prog root a = (a1, Ok (r, log0, new0)) ->
  ref_forest false r nodes a1 = (a', Ok (new, log)) ->
  tree_reference false root nodes a = (a', Ok (r, log0 ++ log, new0 ++ new)).
Proof.
  intros root nodes a a1 a' r log0 new0 new log E0 E. unfold tree_reference.
  erewrite bind_ok by exact E0. cbv beta iota. erewrite bind_ok by exact E. reflexivity.
Qed.

(* the interpreter on the flattened literal, from the macro's initial registers: the trailing
   step-outs that [flatten] dropped would only have moved [__node] *)
Lemma tree_macro_ok : forall {root nodes a a1 a' r log0 new0 new log},
  root_prog root a = (a1, Ok (r, log0, new0)) ->
  runs (flat_map acts_of nodes) r a1 a' log new ->
  tree_macro false root nodes a = (a', Ok (r, log0 ++ log, new0 ++ new)).
Proof.
  intros root nodes a a1 a' r log0 new0 new log E0 H.
  destruct (flatten_spec nodes) as (acts & k & EF & EA).
  destruct (H (mkMState r None log0 new0) eq_refl) as (s' & E & _ & L & W). cbn [m_log m_new] in L, W.
  rewrite EA, exec_app in E. unfold bind in E.
  destruct (exec_actions false acts _ a1) as [a2 [s|c|]] eqn:E1; try discriminate.
  apply exec_parents_inv in E. destruct E as (-> & L1 & W1).
  unfold tree_macro. rewrite EF.
  erewrite bind_ok by exact E0. cbv beta iota. erewrite bind_ok by exact E1.
  unfold ret. rewrite <- L1, <- W1, L, W. reflexivity.
Qed.

(* the interpreter of the macro and the direct recursion on the literal compute the same arena and results, and
   that arena represents the forest the literal describes; the theorems for C15 below are its projections *)
Lemma master : forall w F root nodes, Repr (ar w) F -> AllocOK w ->
  match root with RootId r => live (ar w) r | RootValue _ => True end ->
  exists a' r log new trees F',
    tree_reference false root nodes (ar w) = (a', Ok (r, log, new)) /\
    tree_macro false root nodes (ar w) = (a', Ok (r, log, new)) /\
    literal_built w F root nodes a' r log new trees F' /\
    tops F' = match root with RootId _ => tops F | RootValue _ => [r] :: tops F end.
Proof.
  intros w F root nodes R OK Lr. destruct root as [r0|v].
  - destruct (forest_spec nodes w F r0 R OK Lr)
      as (w' & trs & F' & E & R' & _ & (S' & (K & T' & O & P) & [G N] & M) & RN).
    eexists _, _, _, _, trs, F'.
    split; [exact (tree_reference_ok (root := RootId r0) eq_refl E)|].
    split; [exact (tree_macro_ok (root := RootId r0) eq_refl RN)|]. split; [|exact P].
    unfold literal_built. repeat apply conj; trivial.
  - destruct (new_step w F v R OK) as (w1 & x & E1 & R1 & OK1 & X1 & _).
    assert (Lx : live (ar w1) x) by (apply (ext_new X1); now left).
    destruct (forest_spec nodes w1 _ x R1 OK1 Lx)
      as (w' & trs & F' & E & R' & _ & (S' & (K & T' & O & P) & X & M) & RN).
    destruct (extends_trans _ _ _ _ _ X1 X) as [G N].
    assert (E0 : root_prog (RootValue v) (ar w) = (ar w1, Ok (x, [v], [x]))).
    { unfold root_prog. erewrite bind_ok by exact E1. reflexivity. }
    eexists _, _, _, _, trs, F'.
    split; [exact (tree_reference_ok E0 E)|]. split; [exact (tree_macro_ok E0 RN)|]. split; [|exact P].
    unfold literal_built. repeat apply conj; trivial.
    + apply N. now left.
    + intros y Hy. apply N. now right.
Qed.

Theorem macro_is_reference : forall w root nodes, WF w ->
  match root with RootId r => live (ar w) r | RootValue _ => True end ->
  tree_macro false root nodes (ar w) = tree_reference false root nodes (ar w).
Proof.
  intros w root nodes [[F R] OK] Lr.
  destruct (master w F root nodes R OK Lr) as (a' & r & log & new & trees & F' & E1 & E2 & _).
  congruence.
Qed.

(* with the parentless chains of the forest in addition *)
Theorem reference_builds_literal_strong : forall w F root nodes, Repr (ar w) F -> AllocOK w ->
  match root with RootId r => live (ar w) r | RootValue _ => True end ->
  exists a' r log new trees F',
    tree_reference false root nodes (ar w) = (a', Ok (r, log, new)) /\
    literal_built w F root nodes a' r log new trees F' /\
    tops F' = match root with RootId _ => tops F | RootValue _ => [r] :: tops F end.
Proof.
  intros w F root nodes R OK Lr.
  destruct (master w F root nodes R OK Lr) as (a' & r & log & new & trees & F' & E1 & _ & H).
  exists a', r, log, new, trees, F'. exact (conj E1 H).
Qed.

Theorem reference_builds_literal : forall w F root nodes, Repr (ar w) F -> AllocOK w ->
  match root with RootId r => live (ar w) r | RootValue _ => True end ->
  exists a' r log new trees F',
    tree_reference false root nodes (ar w) = (a', Ok (r, log, new)) /\
    (match root with RootId r0 => r = r0 /\ log = flat_map lit_preorder nodes /\ new = flat_map ids trees
                   | RootValue v => ~ live (ar w) r /\ log = v :: flat_map lit_preorder nodes /\ new = r :: flat_map ids trees end) /\
    Forall2 shaped nodes trees /\
    Repr a' F' /\
    kidsf F' r = kidsf F r ++ map Spec.root trees /\
    (forall t x ts, In t trees -> subtree_of t (T x ts) -> kidsf F' x = map Spec.root ts) /\
    (forall p, p <> r -> ~ In p (flat_map ids trees) -> kidsf F' p = kidsf F p) /\
    (forall y, In y (flat_map ids trees) -> ~ live (ar w) y /\ live a' y) /\
    (forall y, live (ar w) y -> live a' y /\ payload_of_id a' y = payload_of_id (ar w) y) /\
    payloads_match a' nodes trees.
Proof.
  intros w F root nodes R OK Lr.
  destruct (reference_builds_literal_strong w F root nodes R OK Lr)
    as (a' & r & log & new & trees & F' & E & H & _).
  exists a', r, log, new, trees, F'. exact (conj E H).
Qed.

Corollary macro_builds_literal : forall w F root nodes, Repr (ar w) F -> AllocOK w ->
  match root with RootId r => live (ar w) r | RootValue _ => True end ->
  exists a' r log new trees F',
    tree_macro false root nodes (ar w) = (a', Ok (r, log, new)) /\
    literal_built w F root nodes a' r log new trees F'.
Proof.
  intros w F root nodes R OK Lr.
  rewrite (macro_is_reference w root nodes (conj (ex_intro _ F R) OK) Lr).
  now apply reference_builds_literal.
Qed.

(* the matched payloads, in the vocabulary of Props.v *)
Corollary payloads_match_payload_of_id : forall a nodes trees, payloads_match a nodes trees ->
  Forall2 (fun t tr => match t, tr with L e _, T x _ => payload_of_id a x = Some e end) nodes trees.
Proof.
  intros a nodes trees H. induction H as [|[e ks] [x ts] l l' Hm _ IH]; constructor; auto.
  inversion Hm; subst. now apply has_payload_iff.
Qed.

Corollary macro_no_panic : forall w root nodes, WF w ->
  match root with RootId r => live (ar w) r | RootValue _ => True end ->
  exists a' res, tree_macro false root nodes (ar w) = (a', Ok res).
Proof.
  intros w root nodes [[F R] OK] Lr.
  destruct (master w F root nodes R OK Lr) as (a' & r & log & new & trees & F' & _ & E2 & _).
  eauto.
Qed.

Definition ex_lit : list lit :=
  [L 1 []; L 2 [L 3 [L 4 []]; L 5 []]; L 6 []]%N.
(* an arena with a root (slot 0, payload 100) that already has one child (slot 1, payload 200) *)
Definition ex_world : world := run false [ONew 100%N; OAppendValue (mkId 0 0) 200%N] init.
Definition id_ (i : nat) : nid := mkId i 0%Z.

(* tree!(arena, root_id => { 1, 2 => { 3 => { 4 }, 5 }, 6 }) *)
Example ex_root_id :
  tree_macro false (RootId (id_ 0)) ex_lit (ar ex_world)
  = tree_reference false (RootId (id_ 0)) ex_lit (ar ex_world) /\
  snd (tree_macro false (RootId (id_ 0)) ex_lit (ar ex_world))
  = Ok (id_ 0, [1; 2; 3; 4; 5; 6]%N, [id_ 2; id_ 3; id_ 4; id_ 5; id_ 6; id_ 7]) /\
  (* slot by slot: payload and parent *)
  map (fun n => (data n, parent n)) (nodes (fst (tree_macro false (RootId (id_ 0)) ex_lit (ar ex_world))))
  = [(Data 100, None); (Data 200, Some (id_ 0));
     (Data 1, Some (id_ 0)); (Data 2, Some (id_ 0)); (Data 3, Some (id_ 3)); (Data 4, Some (id_ 4));
     (Data 5, Some (id_ 3)); (Data 6, Some (id_ 0))]%N /\
  (* the root's children: the old one first, then the literal's top-level nodes in order *)
  children (id_ 0) (fst (tree_macro false (RootId (id_ 0)) ex_lit (ar ex_world)))
  = Ok [id_ 1; id_ 2; id_ 3; id_ 7].
Proof. vm_compute. repeat split. Qed.

(* tree!(arena, 7 => { 1, 2 => { 3 => { 4 }, 5 }, 6 }) *)
Example ex_root_value :
  tree_macro false (RootValue 7%N) ex_lit (ar ex_world)
  = tree_reference false (RootValue 7%N) ex_lit (ar ex_world) /\
  snd (tree_macro false (RootValue 7%N) ex_lit (ar ex_world))
  = Ok (id_ 2, [7; 1; 2; 3; 4; 5; 6]%N, [id_ 2; id_ 3; id_ 4; id_ 5; id_ 6; id_ 7; id_ 8]) /\
  map (fun n => (data n, parent n)) (nodes (fst (tree_macro false (RootValue 7%N) ex_lit (ar ex_world))))
  = [(Data 100, None); (Data 200, Some (id_ 0)); (Data 7, None);
     (Data 1, Some (id_ 2)); (Data 2, Some (id_ 2)); (Data 3, Some (id_ 4)); (Data 4, Some (id_ 5));
     (Data 5, Some (id_ 4)); (Data 6, Some (id_ 2))]%N /\
  children (id_ 2) (fst (tree_macro false (RootValue 7%N) ex_lit (ar ex_world)))
  = Ok [id_ 3; id_ 4; id_ 8].
Proof. vm_compute. repeat split. Qed.

(* the flattened action list of the example (the trailing step-out of node 2 is kept because node 6
   follows; a literal ending in a nested node loses its trailing step-outs) *)
Example ex_flatten :
  flatten ex_lit = Some [AAppend 1; AAppend 2; ANest; AAppend 3; ANest; AAppend 4; AParent; AAppend 5;
                         AParent; AAppend 6]%N /\
  flatten [L 1 [L 2 [L 3 []]]]%N = Some [AAppend 1; ANest; AAppend 2; ANest; AAppend 3]%N.
Proof. vm_compute. auto. Qed.

Print Assumptions macro_is_reference.
Print Assumptions reference_builds_literal.
Print Assumptions macro_builds_literal.
Print Assumptions reference_builds_literal_strong.
