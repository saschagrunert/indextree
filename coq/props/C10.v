(* C10 — Double-ended sibling/children iterators obey the DoubleEndedIterator laws.
   For EVERY sequence of front/back pulls: on any run of siblings linked in the arena the
   (head, tail) machine returns exactly what [de_spec] prescribes for a deque: front pulls in
   forward order, back pulls in backward order, every element once, None at both ends afterwards. *)
From IT Require Import Props.
From IT.proofs Require Import TraverseProofs Reach StateProps.

Theorem C10_pulls_children_following : forall a xs pulls, linked a xs -> NoDup (map idx xs) ->
  de_pulls DChildren pulls (hd_error xs, last_error xs) a = Ok (de_spec xs pulls)
  /\ de_pulls DFollowing pulls (hd_error xs, last_error xs) a = Ok (de_spec xs pulls).
Proof. exact de_pulls_fwd. Qed.
Theorem C10_pulls_preceding : forall a xs pulls, linked a xs -> NoDup (map idx xs) ->
  de_pulls DPreceding pulls (last_error xs, hd_error xs) a = Ok (de_spec (rev xs) pulls).
Proof. exact de_pulls_bwd. Qed.
Theorem C10_children : forall a t pulls, tree_in a t ->
  de_run DChildren (root t) pulls a = Ok (de_spec (map root (kids t)) pulls).
Proof. exact children_pulls. Qed.

(* ---- from EVERY live node of EVERY reachable arena, for EVERY pull sequence ---- *)
Theorem C10_children_reachable : forall ops F x pulls, Repr (ar (reach ops)) F -> live (ar (reach ops)) x ->
  de_run DChildren x pulls (ar (reach ops)) = Ok (de_spec (kidsf F x) pulls).
Proof. intros ops F x pulls R Lx. exact (repr_de_children _ F x pulls R Lx). Qed.
(* l is the forward sequence: x and its later siblings (also for parentless nodes in a top-level chain) *)
Theorem C10_following_reachable : forall ops, valid_hist false init ops -> forall x pulls l,
  live (ar (reach ops)) x -> is_path (ar (reach ops)) next x l ->
  de_run DFollowing x pulls (ar (reach ops)) = Ok (de_spec l pulls).
Proof. intros ops H. destruct (reach_repr ops H) as [F R]. intros x pulls l Lx Hl. exact (repr_de_following _ F x pulls l R Lx Hl). Qed.
Theorem C10_preceding_reachable : forall ops, valid_hist false init ops -> forall x pulls l,
  live (ar (reach ops)) x -> is_path (ar (reach ops)) prev x l ->
  de_run DPreceding x pulls (ar (reach ops)) = Ok (de_spec l pulls).
Proof. intros ops H. destruct (reach_repr ops H) as [F R]. intros x pulls l Lx Hl. exact (repr_de_preceding _ F x pulls l R Lx Hl). Qed.

Print Assumptions C10_pulls_children_following.
Print Assumptions C10_pulls_preceding.
Print Assumptions C10_children.
Print Assumptions C10_children_reachable.
Print Assumptions C10_following_reachable.
Print Assumptions C10_preceding_reachable.
