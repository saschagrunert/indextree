(* ForestFacts.v — what the abstract forest operations of Forest.v say in plain list terms
   (readable corollaries used by the C03/C04 property files). *)
From IT Require Import Forest.
From IT.proofs Require Export Basics.

Lemma f_detach_kids : forall x F p, kidsf (f_detach x F) p = remove_id x (kidsf F p).
Proof. reflexivity. Qed.
Lemma f_detach_root : forall x F, In [x] (tops (f_detach x F)).
Proof. intros; cbn; auto. Qed.

(* append: c becomes the LAST child of x; every other child list only loses c *)
Lemma f_insert_append_target : forall x c F, kidsf (f_insert KAppend x c F) x = remove_id c (kidsf F x) ++ [c].
Proof. intros. cbn. now rewrite nid_eqb_refl. Qed.
Lemma f_insert_append_other : forall x c F p, p <> x -> kidsf (f_insert KAppend x c F) p = remove_id c (kidsf F p).
Proof. intros. cbn. now rewrite nid_eqb_neq. Qed.
(* prepend: c becomes the FIRST child of x *)
Lemma f_insert_prepend_target : forall x c F, kidsf (f_insert KPrepend x c F) x = c :: remove_id c (kidsf F x).
Proof. intros. cbn. now rewrite nid_eqb_refl. Qed.
Lemma f_insert_prepend_other : forall x c F p, p <> x -> kidsf (f_insert KPrepend x c F) p = remove_id c (kidsf F p).
Proof. intros. cbn. now rewrite nid_eqb_neq. Qed.
(* insert_after / insert_before: c is placed immediately after / before x in whichever list holds x *)
Lemma f_insert_after_kids : forall x c F p, kidsf (f_insert KAfter x c F) p = ins_after x c (remove_id c (kidsf F p)).
Proof. reflexivity. Qed.
Lemma f_insert_before_kids : forall x c F p, kidsf (f_insert KBefore x c F) p = ins_before x c (remove_id c (kidsf F p)).
Proof. reflexivity. Qed.

(* remove: the children of x take x's place; x itself has no children any more *)
Lemma f_remove_kids : forall x F p, p <> x -> kidsf (f_remove x F) p = subst_id x (kidsf F x) (kidsf F p).
Proof. intros. cbn. now rewrite nid_eqb_neq. Qed.
Lemma f_remove_self : forall x F, kidsf (f_remove x F) x = [].
Proof. intros. cbn. now rewrite nid_eqb_refl. Qed.

(* remove_subtree: nodes of D lose their children lists; x disappears from its list *)
Lemma f_remove_subtree_kids : forall x D F p, nid_in p D = false -> kidsf (f_remove_subtree x D F) p = remove_id x (kidsf F p).
Proof. intros. cbn. now rewrite H. Qed.
Lemma f_remove_subtree_gone : forall x D F p, nid_in p D = true -> kidsf (f_remove_subtree x D F) p = [].
Proof. intros. cbn. now rewrite H. Qed.
