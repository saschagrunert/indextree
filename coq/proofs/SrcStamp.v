(* SrcStamp.v — the regenerated definitions of gen/GenStamp.v (NodeStamp, Node helpers, id helpers,
   translated from id.rs / node.rs on every run) are exactly the hand-written model's. *)
From IT.proofs Require Import SrcTac.
From IT.gen Require Import GenStamp.
Open Scope mon_scope.

Lemma src_stamp_is_removed dbg s a : g_NodeStamp_is_removed dbg s a = (a, Ok (st_is_removed s)).
Proof. reflexivity. Qed.

Lemma src_stamp_as_removed dbg s a : g_NodeStamp_as_removed dbg s a = liftres (st_as_removed dbg s) a.
Proof. unfold g_NodeStamp_as_removed, st_as_removed, g_NodeStamp_is_removed, st_is_removed. mx. Qed.

Lemma src_stamp_reuseable dbg s a : g_NodeStamp_reuseable dbg s a = liftres (st_reuseable dbg s) a.
Proof. unfold g_NodeStamp_reuseable, st_reuseable, g_NodeStamp_is_removed, st_is_removed. mx. Qed.

Definition dup {A} (r : res A) : res (A * A) :=
  match r with Ok z => Ok (z, z) | Panic c => Panic c | Diverge => Diverge end.

Lemma src_stamp_reuse dbg s a : g_NodeStamp_reuse dbg s a = liftres (dup (st_reuse dbg s)) a.
Proof.
  unfold g_NodeStamp_reuse, st_reuse, dup, g_NodeStamp_reuseable, st_reuseable, g_NodeStamp_is_removed, st_is_removed. mx.
Qed.

Lemma src_node_is_removed dbg n a : g_Node_is_removed dbg n a = (a, Ok (node_is_removed n)).
Proof. reflexivity. Qed.

Lemma src_node_is_detached dbg n a : g_Node_is_detached dbg n a = (a, Ok (node_is_detached n)).
Proof. reflexivity. Qed.

Lemma src_node_new dbg v a : g_Node_new dbg v a = (a, Ok (fresh_node 0 (Data v))).
Proof. reflexivity. Qed.

(* Node::reuse as a function on node values (the model's node_reuse works on the slot index) *)
Definition node_reuse_val (dbg : bool) (n : node) (v : N) : res node :=
  if dbg && negb (match data n with NextFree _ => true | Data _ => false end) then Panic P_DEBUG_ASSERT
  else if dbg && negb (node_is_removed n) then Panic P_DEBUG_ASSERT
  else match st_reuse dbg (stamp n) with
       | Ok s' => Ok (fresh_node s' (Data v))
       | Panic c => Panic c
       | Diverge => Diverge
       end.

Lemma src_node_reuse dbg n v a : g_Node_reuse dbg n v a = liftres (node_reuse_val dbg n v) a.
Proof.
  unfold g_Node_reuse, node_reuse_val, node_is_removed. 
  unfold g_NodeStamp_reuse, st_reuse, g_NodeStamp_reuseable, st_reuseable, g_NodeStamp_is_removed, st_is_removed. mx.
Qed.

Lemma src_index0 dbg x a : g_NodeId_index0 dbg x a = (a, Ok (idx x)).
Proof. unfold g_NodeId_index0, ret. cbn. rewrite Nat.sub_0_r. reflexivity. Qed.

Lemma src_from_non_zero_usize dbg i s a : g_NodeId_from_non_zero_usize dbg (S i) s a = (a, Ok (mkId i s)).
Proof. reflexivity. Qed.

Lemma src_id_is_removed dbg x a : g_NodeId_is_removed dbg x a = lift (id_is_removed x) a.
Proof. unfold g_NodeId_is_removed, id_is_removed. mx. Qed.
#[export] Hint Resolve src_stamp_as_removed src_stamp_reuseable src_node_reuse src_node_is_removed src_node_is_detached src_node_new src_index0 src_from_non_zero_usize : src.
