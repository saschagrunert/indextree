(* C06 — Node ids are never reissued; is_removed(id) stays true forever after removal.
   For histories of ANY length (the induction is over the operation list; the end of the i16
   generation counter is a case of the step lemma, not a bound): the ids issued since creation /
   the last clear are pairwise distinct; for every issued id, NodeId::is_removed returns (never
   panics) true exactly for the ids whose node has been removed; once removed, an id stays in the
   removed set (hence reports true) under every continuation without clear; stamps never leave
   the i16 range, so debug and release arithmetic agree.  The generation arithmetic itself is
   proved over the whole range (cycle_increases, exhausted_retired in proofs/AllocProofs.v) and
   compared with the implementation over all 65536 inputs on every run. *)
From IT Require Import Props.
From IT.proofs Require Import AllocProofs AllocProps Reach.
Open Scope Z_scope.

Theorem C06_unique : forall ops, valid_hist false init ops -> NoDup (issued (run false ops init)).
Proof. exact hist_issued_nodup. Qed.
Theorem C06_is_removed_exact : forall ops x, valid_hist false init ops ->
  let w := run false ops init in In x (issued w) ->
  (id_is_removed x (ar w) = Ok true <-> In x (removed w)) /\ (id_is_removed x (ar w) = Ok false <-> ~ In x (removed w)).
Proof. exact hist_is_removed_exact. Qed.
Theorem C06_is_removed_total : forall ops x, valid_hist false init ops -> In x (issued (reach ops)) ->
  id_is_removed x (ar (reach ops)) = Ok true /\ In x (removed (reach ops)) \/
  id_is_removed x (ar (reach ops)) = Ok false /\ ~ In x (removed (reach ops)) /\ live (ar (reach ops)) x.
Proof. intros ops x H Hx. exact (wf_is_removed _ x (reach_WF ops H) Hx). Qed.
Theorem C06_removed_forever : forall ops1 ops2 x, valid_hist false init (ops1 ++ ops2) ->
  ~ In OClear ops2 -> In x (removed (run false ops1 init)) ->
  In x (removed (run false (ops1 ++ ops2) init)) /\ In x (issued (run false (ops1 ++ ops2) init)).
Proof. exact hist_removed_forever. Qed.
Theorem C06_no_overflow : forall ops i n, valid_hist false init ops ->
  nth_error (nodes (ar (reach ops))) i = Some n -> i16_min <= stamp n <= i16_max.
Proof. intros ops i n H Hn. exact (wf_stamps_in_range _ i n (reach_WF ops H) Hn). Qed.
(* the generation of a slot strictly increases over a remove / reuse cycle, in debug and release;
   at the end of the counter the slot is retired instead of being reused *)
Theorem C06_generation_increases : forall dbg s s' s'', 0 <= s <= i16_max ->
  st_as_removed dbg s = Ok s' -> st_reuseable dbg s' = Ok true -> st_reuse dbg s' = Ok s'' -> s'' = s + 1 /\ s'' <= i16_max.
Proof. exact cycle_increases. Qed.
Theorem C06_exhausted_slot_retired : forall dbg, st_as_removed dbg i16_max = Ok i16_min /\ st_reuseable dbg i16_min = Ok false.
Proof. exact exhausted_retired. Qed.

Print Assumptions C06_unique.
Print Assumptions C06_is_removed_exact.
Print Assumptions C06_is_removed_total.
Print Assumptions C06_removed_forever.
Print Assumptions C06_no_overflow.
Print Assumptions C06_generation_increases.
Print Assumptions C06_exhausted_slot_retired.
