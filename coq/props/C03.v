(* C03 — Insert, move and detach put exactly the requested subtree at the requested place.
   Refinement: in every reachable world, for every forest F the arena represents, a successful
   call takes the arena to one representing exactly f_insert / f_detach / f_append_value of F
   (theories/Forest.v: plain list surgery; subtrees are intact because only the named child lists
   change), leaves stamps, payloads, free list and length untouched (same_shape); re-inserting a
   node where it already is succeeds and leaves the arena EQUAL; append_value(v) = new_node(v)
   followed by append, as arena equality.  C03_*_means spell out the list surgery. *)
From IT Require Import Props.
From IT.proofs Require Import StepMonitor Reach ForestFacts.

Theorem C03_insert : forall ops k chk x c F, valid_hist false init ops -> let w := reach ops in
  Repr (ar w) F -> usable (ar w) x -> usable (ar w) c -> ~ impossible (ar w) F k x c ->
  let w' := fst (step false w (OInsert k chk x c)) in
  snd (step false w (OInsert k chk x c)) = OutUnit /\ Repr (ar w') (f_insert k x c F) /\ same_shape (ar w) (ar w').
Proof.
  intros ops k chk x c F H w HF Hx Hc Hn.
  pose proof (Assembly.step_outcome w (OInsert k chk x c) F HF (reach_alloc ops H) (conj Hx Hc)) as S.
  destruct chk; cbn zeta in S; destruct S as [_ S];
    [destruct (S Hn) as (A & B & C) | destruct (S Hn) as (A & B & C & _)]; auto.
Qed.
Theorem C03_detach : forall ops x F, valid_hist false init ops -> let w := reach ops in
  Repr (ar w) F -> live (ar w) x ->
  let w' := fst (step false w (ODetach x)) in
  snd (step false w (ODetach x)) = OutUnit /\ Repr (ar w') (f_detach x F) /\ same_shape (ar w) (ar w').
Proof. intros ops x F H w HF Hx. exact (Assembly.step_outcome w (ODetach x) F HF (reach_alloc ops H) Hx). Qed.
Theorem C03_append_value : forall ops p v F, valid_hist false init ops -> let w := reach ops in
  Repr (ar w) F -> live (ar w) p ->
  let w' := fst (step false w (OAppendValue p v)) in
  exists x, snd (step false w (OAppendValue p v)) = OutId x /\ Repr (ar w') (f_append_value p x F) /\
            ~ live (ar w) x /\ issued w' = issued w ++ [x].
Proof.
  intros ops p v F H w HF Hp.
  pose proof (Assembly.step_outcome w (OAppendValue p v) F HF (reach_alloc ops H) (or_introl Hp)) as [_ S].
  destruct (S Hp) as (x & A & B & C). exists x.
  split; [exact A|]. split; [exact B|]. split; [|exact C].
  destruct (Assembly.append_value_refines w F p v HF (reach_alloc ops H) Hp) as (a' & y & E & _ & NL).
  cbn [step] in A. rewrite E in A. cbn in A. inversion A; subst. exact NL.
Qed.
Theorem C03_append_value_eq : forall ops p v F, valid_hist false init ops -> let w := reach ops in
  Repr (ar w) F -> live (ar w) p ->
  exists x, snd (step false w (OAppendValue p v)) = OutId x /\ snd (step false w (ONew v)) = OutId x /\
    ar (fst (step false w (OAppendValue p v)))
    = ar (fst (step false (fst (step false w (ONew v))) (OInsert KAppend false p x))).
Proof. intros ops p v F H w HF Hp. exact (Assembly.append_value_eq w F p v HF (reach_alloc ops H) Hp). Qed.
Theorem C03_reinsert_noop : forall ops k x c nx F, valid_hist false init ops -> let w := reach ops in
  Repr (ar w) F -> live (ar w) x -> live (ar w) c -> x <> c -> node_at (ar w) x nx ->
  match k with KAppend => last nx = Some c | KPrepend => first nx = Some c
             | KAfter => next nx = Some c | KBefore => prev nx = Some c end ->
  snd (step false w (OInsert k true x c)) = OutUnit /\ ar (fst (step false w (OInsert k true x c))) = ar w.
Proof.
  intros ops k x c nx F H w HF Hx Hc Hne Hn Hpos. cbn [step].
  now rewrite (ReprInsert.reinsert_noop (ar w) F k x c nx HF Hx Hc Hne Hn Hpos).
Qed.

(* what the abstract operations mean, in list terms *)
Theorem C03_append_means : forall x c F,
  kidsf (f_insert KAppend x c F) x = remove_id c (kidsf F x) ++ [c] /\
  (forall p, p <> x -> kidsf (f_insert KAppend x c F) p = remove_id c (kidsf F p)).
Proof. intros; split; [apply f_insert_append_target | intros; now apply f_insert_append_other]. Qed.
Theorem C03_prepend_means : forall x c F,
  kidsf (f_insert KPrepend x c F) x = c :: remove_id c (kidsf F x) /\
  (forall p, p <> x -> kidsf (f_insert KPrepend x c F) p = remove_id c (kidsf F p)).
Proof. intros; split; [apply f_insert_prepend_target | intros; now apply f_insert_prepend_other]. Qed.
Theorem C03_insert_after_means : forall x c F p A B,
  remove_id c (kidsf F p) = A ++ x :: B -> ~ In x A -> ~ In x B ->
  kidsf (f_insert KAfter x c F) p = A ++ x :: c :: B.
Proof.
  intros. now rewrite f_insert_after_kids, H, ins_after_mid.
Qed.
Theorem C03_insert_before_means : forall x c F p A B,
  remove_id c (kidsf F p) = A ++ x :: B -> ~ In x A -> ~ In x B ->
  kidsf (f_insert KBefore x c F) p = A ++ c :: x :: B.
Proof.
  intros. now rewrite f_insert_before_kids, H, ins_before_mid.
Qed.
Theorem C03_detach_means : forall x F, In [x] (tops (f_detach x F)) /\ (forall p, kidsf (f_detach x F) p = remove_id x (kidsf F p)).
Proof. intros; split; [apply f_detach_root | intros; apply f_detach_kids]. Qed.

(* the executable step checker that the correspondence run applies to consecutive states observed on
   the implementation (Monitor.check_step: documented forest operation, outcome vs impossibility,
   atomicity, frame clauses) is silent on EVERY valid step of the model from every reachable world:
   it cannot raise an alarm as long as the implementation behaves like the model *)
Theorem C03_step_monitor_silent : forall ops o, valid_hist false init ops -> valid_op (ar (reach ops)) o ->
  check_step (ar (reach ops)) o (snd (step false (reach ops) o)) (ar (fst (step false (reach ops) o))) = [].
Proof. intros ops o H Hv. exact (check_step_silent (reach ops) o (reach_WF ops H) Hv). Qed.

Print Assumptions C03_insert.
Print Assumptions C03_step_monitor_silent.
Print Assumptions C03_detach.
Print Assumptions C03_append_value.
Print Assumptions C03_append_value_eq.
Print Assumptions C03_reinsert_noop.
Print Assumptions C03_append_means.
Print Assumptions C03_prepend_means.
Print Assumptions C03_insert_after_means.
Print Assumptions C03_insert_before_means.
Print Assumptions C03_detach_means.
