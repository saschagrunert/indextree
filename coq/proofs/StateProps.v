(* StateProps.v — the state-level properties (C01, C02, C09, C10, C12 state part, C14) of every arena
   that represents some forest: [Repr a F] alone implies that the links are well formed, that the
   executable checkers of Monitor.v are silent, and that every iterator started at a live node
   returns its documented sequence.  No operation of the crate is involved. *)
From IT Require Import Props.
From IT.proofs Require Import TraverseProofs PrinterProofs ReprTree ReprBase.
From IT.proofs Require Export MonitorSound.
From Coq Require Import Lia.
Local Open Scope nat_scope.

Lemma is_path_in_hd : forall a link x l, is_path a link x l -> hd_error l = Some x.
Proof. intros a link x l H. symmetry. exact (opath_hd a link (Some x) l H). Qed.

Lemma opath_iter : forall a link l o fuel, opath a link o l -> length l <= fuel ->
  iter_collect link fuel o a = Ok l.
Proof.
  intros a link. induction l as [|y r IH]; intros [x|] fuel H Hlen; cbn [opath] in H;
    try discriminate H; [destruct H | apply iter_collect_none |].
  apply is_path_step in H. destruct H as (r1 & E & I & H). inversion E; subst y r1.
  cbn [length] in Hlen. destruct fuel as [|f]; [lia|].
  cbn [iter_collect]. unfold rbind at 1. unfold rrdi, rrd. rewrite (at_nd _ _ I).
  unfold rbind. rewrite (IH _ f H) by lia. reflexivity.
Qed.

Lemma is_path_walk_end : forall a link l x fuel, is_path a link x l -> length l <= fuel ->
  exists e, last_error l = Some e /\ link (nd a e) = None /\ walk_end link fuel x a = Ok e.
Proof.
  intros a link. induction l as [|y r IH]; intros x fuel H Hlen; [destruct H|].
  apply is_path_step in H. destruct H as (r1 & E & I & H). inversion E; subst y r1.
  cbn [length] in Hlen. destruct fuel as [|f]; [lia|].
  cbn [walk_end]. unfold rbind, rrdi, rrd. rewrite (at_nd _ _ I).
  destruct (link (nd a x)) as [z|] eqn:El; cbn [opath] in H.
  - destruct (IH z f H) as (e & HE & Ne & W); [lia|]. exists e. split; [|auto].
    destruct r; [destruct H|]. now rewrite last_error_cons.
  - subst r. exists x. auto.
Qed.

Lemma path_glinked : forall a f g (P : nid -> Prop),
  (forall y z, P y -> f (nd a y) = Some z -> P z /\ g (nd a z) = Some y) ->
  forall l x, P x -> is_path a f x l -> glinked f g a l.
Proof.
  intros a f g P HP. induction l as [|y r IH]; intros x Px H; [destruct H|].
  apply is_path_step in H. destruct H as (r1 & E & I & H). inversion E; subst y r1.
  destruct (f (nd a x)) as [z|] eqn:Ef; cbn [opath] in H.
  - destruct (HP x z Px Ef) as [Pz Gz]. pose proof (IH z Pz H) as G.
    apply is_path_inv in H. destruct H as (r' & -> & Iz & _).
    eapply gl_cons; eauto; now apply at_nd.
  - subst r. eapply gl_one. now apply at_nd.
Qed.

Section Facts.
Variables (a : arena) (F : forest).
Hypothesis R : Repr a F.

Lemma sibs_at : forall o A x B, sibs F o (A ++ x :: B) ->
  live a x /\ parent (nd a x) = o /\ prev (nd a x) = last_error A /\ next (nd a x) = hd_error B.
Proof.
  intros o A x B HS. assert (Hx : In x (A ++ x :: B)) by (apply in_elt).
  split; [exact (sibs_live a F R _ _ _ HS Hx)|]. split; [exact (sibs_parent a F R _ _ _ HS Hx)|].
  exact (sibs_mid a F R _ _ _ _ HS).
Qed.

Lemma next_back : forall x y, live a x -> next (nd a x) = Some y ->
  live a y /\ prev (nd a y) = Some x /\ parent (nd a y) = parent (nd a x).
Proof.
  intros x y L N. destruct (sibs_split a F R x L) as (A & B & HS).
  destruct (sibs_at _ _ _ _ HS) as (_ & _ & _ & N'). rewrite N in N'.
  destruct B as [|y' B]; inversion N'; subst y'.
  change (x :: y :: B) with ([x] ++ y :: B) in HS. rewrite app_assoc in HS.
  destruct (sibs_at _ _ _ _ HS) as (Ly & P & V & _). rewrite last_error_snoc in V. auto.
Qed.

Lemma prev_fwd : forall x y, live a x -> prev (nd a x) = Some y ->
  live a y /\ next (nd a y) = Some x /\ parent (nd a y) = parent (nd a x).
Proof.
  intros x y L V. destruct (sibs_split a F R x L) as (A & B & HS).
  destruct (sibs_at _ _ _ _ HS) as (_ & _ & V' & _). rewrite V in V'. symmetry in V'.
  apply last_error_split in V'. destruct V' as [A' ->]. rewrite <- app_assoc in HS.
  destruct (sibs_at _ A' y (x :: B) HS) as (Ly & P & _ & N). auto.
Qed.

Lemma sib_link : forall k x y, live a x -> de_fwd k (nd a x) = Some y ->
  live a y /\ de_bwd k (nd a y) = Some x /\ parent (nd a y) = parent (nd a x).
Proof. intros []; [apply next_back | apply prev_fwd | apply next_back]. Qed.

Lemma first_iff : forall x c, live a x -> live a c ->
  (first (nd a x) = Some c <-> parent (nd a c) = Some x /\ prev (nd a c) = None).
Proof.
  intros x c Lx Lc. destruct (ends_of a F R x Lx) as [-> _]. split.
  - intros H. apply hd_error_split in H. destruct H as [l' K].
    destruct (sibs_at (Some x) [] c l' K) as (_ & P & V & _). auto.
  - intros [P V]. pose proof (parent_kid a F R c x Lc P) as Hc.
    apply in_split in Hc. destruct Hc as (A & B & K).
    destruct (sibs_at (Some x) A c B K) as (_ & _ & V' & _). rewrite V in V'. symmetry in V'.
    apply last_error_None in V'. subst A. now rewrite K.
Qed.

Lemma last_iff : forall p x, live a p -> live a x ->
  (last (nd a p) = Some x <-> parent (nd a x) = Some p /\ next (nd a x) = None).
Proof.
  intros p x Lp Lx. destruct (ends_of a F R p Lp) as [_ ->]. split.
  - intros H. apply last_error_split in H. destruct H as [l' K].
    destruct (sibs_at (Some p) l' x [] K) as (_ & P & _ & N). auto.
  - intros [P N]. pose proof (parent_kid a F R x p Lx P) as Hx.
    apply in_split in Hx. destruct Hx as (A & B & K).
    destruct (sibs_at (Some p) A x B K) as (_ & _ & _ & N'). rewrite N in N'. symmetry in N'.
    apply hd_error_None in N'. subst B. rewrite K. apply last_error_snoc.
Qed.

Lemma ends_none : forall x, live a x -> (first (nd a x) = None <-> last (nd a x) = None).
Proof.
  intros x L. destruct (ends_of a F R x L) as [-> ->]. destruct (kidsf F x); cbn; split; auto; discriminate.
Qed.

Lemma kids_bound : forall x, length (kidsf F x) <= length (nodes a).
Proof.
  intros x. apply (live_list_bound a).
  - apply (r_kids _ _ R).
  - intros y Hy. eapply (ReprBase.kid_live a F R); eauto.
Qed.

Lemma walk_kids : forall x, live a x ->
  walk_b next (S (length (nodes a))) a (first (nd a x)) = Some (kidsf F x).
Proof.
  intros x L. destruct (ends_of a F R x L) as [-> _]. destruct (r_kids _ _ R x) as [D _].
  apply walk_b_opath. split; [eapply dseg_opath; eauto|]. pose proof (kids_bound x). lia.
Qed.

Lemma sib_path : forall k x, live a x ->
  exists l, is_path a (de_fwd k) x l /\ NoDup l /\
    (forall y, In y l -> live a y /\ parent (nd a y) = parent (nd a x)).
Proof.
  intros k x L.
  assert (E : exists l, is_path a (de_fwd k) x l).
  { destruct (sibs_split a F R x L) as (A & B & HS). destruct (sibs_dseg a F R _ _ HS) as [D _].
    assert (D2 := D). apply dseg_app in D2. destruct D2 as [_ D2].
    change (x :: B) with ([x] ++ B) in D. rewrite app_assoc in D. apply dseg_app in D. destruct D as [D _].
    destruct k; cbn [de_fwd]; eauto using dseg_next_path, dseg_prev_path. }
  destruct E as [l P]. exists l. split; [exact P|]. split; [eapply is_path_NoDup; eauto|].
  apply (is_path_all a (de_fwd k) (fun y => live a y /\ parent (nd a y) = parent (nd a x)) ) with (x := x); auto.
  intros y z [Ly Py] E. destruct (sib_link k y z Ly E) as (Lz & _ & Pz). split; auto. congruence.
Qed.

Lemma sib_glinked : forall k x l, live a x -> is_path a (de_fwd k) x l ->
  glinked (de_fwd k) (de_bwd k) a l.
Proof.
  intros k x l L. apply (path_glinked a _ _ (live a)); auto.
  intros y z Ly E. destruct (sib_link k y z Ly E) as (Lz & V & _). auto.
Qed.

(* the state the iterator over the siblings after (before) x starts in: x, and the end of the path,
   which the crate reads off the parent if there is one and finds by walking otherwise *)
Lemma de_new_sib : forall k x l, k <> DChildren -> live a x -> is_path a (de_fwd k) x l ->
  NoDup l /\ (forall y, In y l -> live a y) /\ de_new k x a = Ok (hd_error l, last_error l).
Proof.
  intros k x l K L P. destruct (sib_path k x L) as (l' & P' & N & LV).
  rewrite (is_path_fun _ _ _ _ _ P P'). clear l P. split; [exact N|]. split; [intros y Hy; now apply LV|].
  rewrite (is_path_in_hd _ _ _ _ P').
  assert (B : length l' <= chain_fuel a).
  { pose proof (live_list_bound a l' N (fun y Hy => proj1 (LV y Hy))). unfold chain_fuel. lia. }
  destruct (is_path_walk_end a _ l' x _ P' B) as (e & HE & Ne & W). rewrite HE.
  destruct (LV e (last_error_In _ _ HE)) as [Le Pe].
  destruct k; [contradiction K; reflexivity | |]; cbn [de_fwd] in *;
    unfold de_new, rget_unwrap, rbind, get; rewrite (at_nd _ _ (live_inr _ _ L));
    (destruct (parent (nd a x)) as [p|] eqn:EP; [|rewrite W; reflexivity]);
    pose proof (link_live a F R x Fparent p L EP) as Lp; rewrite (at_nd _ _ (live_inr _ _ Lp)).
  - rewrite (proj2 (first_iff p e Lp Le)) by auto. reflexivity.
  - rewrite (proj2 (last_iff p e Lp Le)) by auto. reflexivity.
Qed.

Lemma repr_sib_iter : forall k x, k <> DChildren -> live a x ->
  exists l, de_iter k x a = Ok l /\ is_path a (de_fwd k) x l /\ NoDup l /\ length l <= length (live_ids a).
Proof.
  intros k x K L. destruct (sib_path k x L) as (l & P & _). destruct (de_new_sib k x l K L P) as (N & LV & DN).
  exists l. split; [|split; [exact P|split; [exact N|now apply live_ids_bound]]].
  unfold de_iter, rbind. rewrite DN.
  apply de_collect_gen; [eapply sib_glinked; eauto | now apply (live_NoDup_idx a) |].
  pose proof (live_list_bound a l N LV). unfold chain_fuel. lia.
Qed.

Lemma repr_de_sib : forall k x pulls l, k <> DChildren -> live a x -> is_path a (de_fwd k) x l ->
  de_run k x pulls a = Ok (de_spec l pulls).
Proof.
  intros k x pulls l K L P. destruct (de_new_sib k x l K L P) as (N & LV & DN).
  unfold de_run, rbind. rewrite DN.
  apply de_pulls_gen; [eapply sib_glinked; eauto | now apply (live_NoDup_idx a)].
Qed.

End Facts.

(* C01; C12, state part *)

Theorem repr_links_ok : forall a F, Repr a F -> LinksOK a.
Proof.
  intros a F R x n L Hn. apply nd_at in Hn. subst n.
  assert (S : forall k y, de_fwd k (nd a x) = Some y ->
            exists m, node_at a y m /\ de_bwd k m = Some x /\ parent m = parent (nd a x)).
  { intros k y H. destruct (sib_link a F R k x y L H) as (Ly & V & P).
    exists (nd a y). split; [apply at_nd; now apply live_inr|]. auto. }
  split; [|split; [|split; [|split]]].
  - intros f z H. eapply link_live; eauto.
  - exact (S DFollowing).
  - exact (S DPreceding).
  - now apply (ends_none a F).
  - exists (kidsf F x). destruct (r_kids _ _ R x) as [D N]. destruct (ends_of a F R x L) as [E1 E2].
    split; [exact D|]. split; [exact N|]. split; [exact E1|]. split; [exact E2|].
    intros c. split.
    + intros Hc. split; [eapply ReprBase.kid_live; eauto|].
      exists (nd a c). split.
      * apply at_nd, live_inr. eapply ReprBase.kid_live; eauto.
      * eapply ReprBase.kid_parent; eauto.
    + intros (Lc & m & Hm & P). apply nd_at in Hm. subst m. eapply parent_kid; eauto.
Qed.

Theorem repr_c01_silent : forall a F, Repr a F -> c01_check a = [].
Proof. intros a F R. apply c01_check_complete. eapply repr_links_ok; eauto. Qed.

Theorem repr_c12_silent : forall a F, Repr a F -> c12_state a = [].
Proof. intros a F R. apply c12_state_iff. apply (r_dead _ _ R). Qed.

(* C02, C09: the four iterators that follow one link *)

Lemma anc_path : forall a F, Repr a F -> forall x d, depthF F x d ->
  exists l, is_path a parent x l /\ NoDup l /\ (forall y, In y l <-> ancF F x y)
            /\ (forall y, In y l -> live a y).
Proof.
  intros a F R. induction 1 as [x c Hc Hx | x p d Hx Hp IH].
  - pose proof (top_live a F R _ _ Hc Hx) as L. pose proof (ReprBase.top_parent a F R _ _ Hc Hx) as P.
    exists [x]. split; [apply is_path_one; auto using live_inr|].
    split; [repeat constructor; intros []|]. split.
    + intros y. split.
      * intros [<-|[]]. constructor.
      * intros H. left. eapply anc_root_inv; eauto.
    + intros y [<-|[]]. auto.
  - destruct IH as (l & P & N & A & LV). pose proof (ReprBase.kid_live a F R _ _ Hx) as L.
    exists (x :: l). split; [|split; [|split]].
    + eapply is_path_more; eauto using live_inr. eapply ReprBase.kid_parent; eauto.
    + constructor; auto. intros Hi. apply A in Hi. eapply kid_not_anc; eauto.
    + intros y. split.
      * intros [<-|Hy]; [constructor|]. eapply anc_step; eauto. now apply A.
      * intros H. destruct (anc_step_inv a F R _ _ _ Hx H) as [->|H']; [now left|]. right. now apply A.
    + intros y [<-|Hy]; auto.
Qed.

Theorem repr_ancestors : forall a F x, Repr a F -> live a x ->
  exists l, ancestors x a = Ok l /\ is_path a parent x l /\ NoDup l /\ (length l <= length (live_ids a))%nat /\ (forall y, In y l <-> ancF F x y).
Proof.
  intros a F x R L. destruct (member_depth a F R x L) as [d Hd].
  destruct (anc_path a F R x d Hd) as (l & P & N & A & LV).
  pose proof (live_list_bound a l N LV) as B.
  exists l. split; [|split; [|split; [|split]]]; auto.
  - unfold ancestors. apply (opath_iter a parent l (Some x)); auto. unfold chain_fuel. lia.
  - apply live_ids_bound; auto.
Qed.

Theorem repr_following : forall a F x, Repr a F -> live a x ->
  exists l, following_siblings x a = Ok l /\ is_path a next x l /\ NoDup l /\ (length l <= length (live_ids a))%nat.
Proof. intros a F x R. apply (repr_sib_iter a F R DFollowing). discriminate. Qed.

Theorem repr_preceding : forall a F x, Repr a F -> live a x ->
  exists l, preceding_siblings x a = Ok l /\ is_path a prev x l /\ NoDup l /\ (length l <= length (live_ids a))%nat.
Proof. intros a F x R. apply (repr_sib_iter a F R DPreceding). discriminate. Qed.

(* predecessors: previous siblings, then the parent, and so on *)
Lemma pred_path : forall a F, Repr a F -> forall x d, depthF F x d -> exists l, is_path a pred_link x l.
Proof.
  intros a F R.
  assert (Sibs : forall o L x tl, sibs F o L -> In x L -> opath a pred_link o tl ->
                 exists l, is_path a pred_link x l).
  { intros o L x tl HS Hx T. apply in_split in Hx. destruct Hx as (A & B & ->).
    destruct (sibs_dseg a F R _ _ HS) as [D _].
    change (x :: B) with ([x] ++ B) in D. rewrite app_assoc in D. apply dseg_app in D. destruct D as [D _].
    exists (rev (A ++ [x]) ++ tl).
    apply (dseg_back_path a pred_link o tl _ _ _ _ D (last_error_snoc _ _)); auto.
    intros y Hy. unfold pred_link. now rewrite (dseg_parent _ _ _ _ _ _ D Hy). }
  induction 1 as [x c Hc Hx | x p d Hx Hp [tl IH]].
  - apply (Sibs None c x []); auto. reflexivity.
  - apply (Sibs (Some p) (kidsf F p) x tl); auto. reflexivity.
Qed.

Theorem repr_predecessors : forall a F x, Repr a F -> live a x ->
  exists l, predecessors x a = Ok l /\ is_path a pred_link x l /\ NoDup l.
Proof.
  intros a F x R L. destruct (member_depth a F R x L) as [d Hd].
  destruct (pred_path a F R x d Hd) as [l P]. pose proof (is_path_NoDup _ _ _ _ P) as N.
  exists l. split; [|split]; auto.
  unfold predecessors. apply (opath_iter a pred_link l (Some x)); auto.
  assert (LV : forall y, In y l -> live a y).
  { apply (is_path_all a pred_link (live a)) with (x := x); auto.
    intros y z Ly. unfold pred_link. destruct (prev (nd a y)) as [v|] eqn:V; cbn [or_else]; intros E.
    - rewrite E in V. exact (link_live a F R y Fprev z Ly V).
    - exact (link_live a F R y Fparent z Ly E). }
  pose proof (live_list_bound a l N LV). unfold trav_fuel. lia.
Qed.

Theorem repr_c02_silent : forall a F, Repr a F -> c02_check a = [].
Proof.
  intros a F R. apply c02_check_iff. intros x L.
  destruct (member_depth a F R x L) as [d Hd].
  destruct (anc_path a F R x d Hd) as (l1 & P1 & N1 & _ & LV1).
  destruct (sib_path a F R DFollowing x L) as (l2 & P2 & N2 & LV2).
  destruct (sib_path a F R DPreceding x L) as (l3 & P3 & N3 & LV3).
  split; [|split].
  - exists l1. split; [exact P1 | now apply (live_list_bound a)].
  - exists l2. split; [exact P2|]. apply (live_list_bound a); [exact N2 | intros y Hy; now apply LV2].
  - exists l3. split; [exact P3|]. apply (live_list_bound a); [exact N3 | intros y Hy; now apply LV3].
Qed.

(* C09: the subtree iterators *)

Lemma NoDup_forest_euler : forall ks,
  Forall (fun t => NoDup (ids t) -> NoDup (euler t)) ks ->
  NoDup (flat_map ids ks) -> NoDup (flat_map euler ks).
Proof.
  induction 1 as [|k r Hk _ IH]; intros N; cbn [flat_map] in *; [constructor|].
  apply NoDup_app_inv in N. destruct N as (N1 & N2 & HD).
  apply NoDup_app_intro; auto.
  intros e H1 H2. apply in_euler_ids in H1. apply in_forest_euler_ids in H2. exact (HD _ H1 H2).
Qed.

Lemma NoDup_euler : forall t, NoDup (ids t) -> NoDup (euler t).
Proof.
  induction t as [x ks IH] using rose_ind'. intros N.
  rewrite ids_unfold in N. rewrite euler_unfold. inversion N as [|? ? Hx Nf]; subst.
  pose proof (NoDup_forest_euler ks IH Nf) as NE.
  constructor.
  - intros Hi. apply in_app_or in Hi. destruct Hi as [Hi|[Hi|[]]]; [|discriminate].
    apply in_forest_euler_ids in Hi. exact (Hx Hi).
  - apply NoDup_app_intro; auto.
    + repeat constructor. intros [].
    + intros e H1 [<-|[]]. apply in_forest_euler_ids in H1. exact (Hx H1).
Qed.

Lemma kids_treeF : forall a F x, live a x ->
  map root (kids (treeF (length (nodes a)) F x)) = kidsf F x.
Proof.
  intros a F x L. pose proof (live_inr _ _ L) as I. unfold inr in I. revert I.
  destruct (length (nodes a)) as [|f]; intros I; [lia|].
  rewrite treeF_unfold. cbn [kids]. apply roots_treeF.
Qed.

Theorem repr_subtree_iterators : forall a F x, Repr a F -> live a x ->
  let t := treeF (length (nodes a)) F x in
  tree_in a t /\ root t = x /\
  traverse x a = Ok (euler t) /\ reverse_traverse x a = Ok (rev (euler t)) /\
  descendants x a = Ok (ids t) /\ children x a = Ok (kidsf F x) /\ reverse_children x a = Ok (rev (kidsf F x)) /\
  NoDup (euler t) /\ NoDup (ids t).
Proof.
  intros a F x R L. cbv zeta.
  pose proof (repr_tree a F x R L) as H. cbv zeta in H. pose proof (kids_treeF a F x L) as K.
  assert (N : NoDup (preorderF (length (nodes a)) F x)).
  { eapply (preorder_NoDup a F R); eauto. }
  revert H K N. generalize (treeF (length (nodes a)) F x). intros t (TI & <- & <- & _) <- N.
  split; [exact TI|]. split; [reflexivity|].
  split; [now apply traverse_euler|]. split; [now apply reverse_traverse_euler|].
  split; [now apply descendants_preorder|].
  split; [now apply children_kids|]. split; [now apply reverse_children_kids|].
  split; [now apply NoDup_euler | exact N].
Qed.

(* C09: next_traverse and prev_traverse undo each other *)

Ltac iff_cases :=
  split; intros H;
  [ inversion H; subst; auto
  | repeat match type of H with _ /\ _ => let H' := fresh in destruct H as [H H'] end;
    subst; try discriminate; try congruence ].

Lemma nt_iff : forall a e e', inr a (eid e) ->
  (next_traverse e a = Ok (Some e') <->
   match e, e' with
   | Start x, Start c => first (nd a x) = Some c
   | Start x, End_ z => first (nd a x) = None /\ z = x
   | End_ x, Start s => next (nd a x) = Some s
   | End_ x, End_ p => next (nd a x) = None /\ parent (nd a x) = Some p
   end).
Proof.
  intros a [x|x] e' I; cbn [eid] in I.
  - rewrite (nt_start a x _ (at_nd _ _ I)).
    destruct e' as [c|z], (first (nd a x)) as [c'|]; iff_cases.
  - rewrite (nt_end a x _ (at_nd _ _ I)).
    destruct e' as [c|z], (next (nd a x)) as [c'|], (parent (nd a x)) as [q|]; cbn [option_map];
      iff_cases.
Qed.

Lemma pt_iff : forall a e e', inr a (eid e) ->
  (prev_traverse e a = Ok (Some e') <->
   match e, e' with
   | End_ x, End_ c => last (nd a x) = Some c
   | End_ x, Start z => last (nd a x) = None /\ z = x
   | Start x, End_ s => prev (nd a x) = Some s
   | Start x, Start p => prev (nd a x) = None /\ parent (nd a x) = Some p
   end).
Proof.
  intros a [x|x] e' I; cbn [eid] in I.
  - rewrite (pt_start a x _ (at_nd _ _ I)).
    destruct e' as [c|z], (prev (nd a x)) as [c'|], (parent (nd a x)) as [q|]; cbn [option_map];
      iff_cases.
  - rewrite (pt_end a x _ (at_nd _ _ I)).
    destruct e' as [c|z], (last (nd a x)) as [c'|]; iff_cases.
Qed.

Theorem repr_steps_inverse : forall a F e e', Repr a F ->
  (match e with Start x | End_ x => live a x end) -> (match e' with Start x | End_ x => live a x end) ->
  (next_traverse e a = Ok (Some e') <-> prev_traverse e' a = Ok (Some e)).
Proof.
  intros a F e e' R Le Le'.
  destruct e as [x|x], e' as [y|y]; rewrite nt_iff, pt_iff by (now apply live_inr).
  - rewrite (first_iff a F R x y Le Le'). tauto.
  - split; intros [H ->]; (split; [|reflexivity]); now apply (ends_none a F R).
  - split; intros H; [now destruct (next_back a F R x y Le H) as (_ & V & _)
                     | now destruct (prev_fwd a F R y x Le' H) as (_ & N & _)].
  - rewrite (last_iff a F R y x Le' Le). tauto.
Qed.

(* C10: arbitrary pull sequences on the double-ended iterators *)

Theorem repr_de_children : forall a F x pulls, Repr a F -> live a x ->
  de_run DChildren x pulls a = Ok (de_spec (kidsf F x) pulls).
Proof.
  intros a F x pulls R L. rewrite <- (kids_treeF a F x L).
  pose proof (repr_tree a F x R L) as H. cbv zeta in H. revert H.
  generalize (treeF (length (nodes a)) F x). intros t (TI & <- & _). now apply children_pulls.
Qed.

Theorem repr_de_following : forall a F x pulls l, Repr a F -> live a x -> is_path a next x l ->
  de_run DFollowing x pulls a = Ok (de_spec l pulls).
Proof. intros a F x pulls l R. apply (repr_de_sib a F R DFollowing). discriminate. Qed.

Theorem repr_de_preceding : forall a F x pulls l, Repr a F -> live a x -> is_path a prev x l ->
  de_run DPreceding x pulls a = Ok (de_spec l pulls).
Proof. intros a F x pulls l R. apply (repr_de_sib a F R DPreceding). discriminate. Qed.

(* C14 *)

Theorem repr_print : forall dbg a F x rend mode, Repr a F -> live a x ->
  (forall y, In y (preorderF (length (nodes a)) F x) -> good_text (concat (rend (payload_at a y) mode)) /\ exists n v, node_at a y n /\ data n = Data v) ->
  pretty_print dbg rend mode x a = Ok (render rend mode (payload_at a) (treeF (length (nodes a)) F x)).
Proof.
  intros dbg a F x rend mode R L H.
  pose proof (repr_tree a F x R L) as HT. cbv zeta in HT. revert HT H.
  generalize (treeF (length (nodes a)) F x). intros t (TI & <- & <- & _) H.
  apply pretty_print_render; auto.
  intros y Hy. destruct (H y Hy) as (G & n & v & Hn & Dn). split; auto.
  exists n. split; auto. unfold payload_at, node_of. unfold node_at in Hn. rewrite Hn, Dn. reflexivity.
Qed.

Print Assumptions repr_links_ok.
Print Assumptions repr_c01_silent.
Print Assumptions repr_c12_silent.
Print Assumptions repr_ancestors.
Print Assumptions repr_following.
Print Assumptions repr_preceding.
Print Assumptions repr_predecessors.
Print Assumptions repr_c02_silent.
Print Assumptions repr_subtree_iterators.
Print Assumptions repr_steps_inverse.
Print Assumptions repr_de_children.
Print Assumptions repr_de_following.
Print Assumptions repr_de_preceding.
Print Assumptions repr_print.
