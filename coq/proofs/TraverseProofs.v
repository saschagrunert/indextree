(* TraverseProofs.v — the iterators of Traverse.v against the rose-tree specification of Spec.v:
   Euler tours (traverse / reverse_traverse / next_traverse / prev_traverse), pre-order
   (descendants), sibling runs (children / reverse_children) and the DoubleEndedIterator laws of
   the double-ended state machine. *)
From IT Require Import Spec.
From IT.proofs Require Import Basics.
From Coq Require Import Lia.   (* List comes through Spec; re-importing it would shadow the field [last] *)
Local Open Scope nat_scope.

(* Not vacuous: slot 0 is a root with children 1, 2, 3; slot 2 has the single child 4. *)
Definition a0 : arena := mkArena
  [ mkNode None None None (Some (mkId 1 0%Z)) (Some (mkId 3 0%Z)) 0%Z (Data 10%N);
    mkNode (Some (mkId 0 0%Z)) None (Some (mkId 2 0%Z)) None None 0%Z (Data 11%N);
    mkNode (Some (mkId 0 0%Z)) (Some (mkId 1 0%Z)) (Some (mkId 3 0%Z))
           (Some (mkId 4 0%Z)) (Some (mkId 4 0%Z)) 0%Z (Data 12%N);
    mkNode (Some (mkId 0 0%Z)) (Some (mkId 2 0%Z)) None None None 0%Z (Data 13%N);
    mkNode (Some (mkId 2 0%Z)) None None None None 0%Z (Data 14%N) ]
  None None.

Definition t0 : rose :=
  T (mkId 0 0%Z) [ T (mkId 1 0%Z) []; T (mkId 2 0%Z) [ T (mkId 4 0%Z) [] ]; T (mkId 3 0%Z) [] ].

Example tree_in_a0 : tree_in a0 t0.
Proof.
  split.
  - repeat econstructor.
  - cbn. repeat constructor; cbn; intuition discriminate.
Qed.

Example traverse_a0 : traverse (root t0) a0 = Ok (euler t0).
Proof. vm_compute; reflexivity. Qed.
Example reverse_traverse_a0 : reverse_traverse (root t0) a0 = Ok (rev (euler t0)).
Proof. vm_compute; reflexivity. Qed.
Example descendants_a0 : descendants (root t0) a0 = Ok (ids t0).
Proof. vm_compute; reflexivity. Qed.
Example children_a0 : children (root t0) a0 = Ok (map root (kids t0)).
Proof. vm_compute; reflexivity. Qed.
Example reverse_children_a0 : reverse_children (root t0) a0 = Ok (rev (map root (kids t0))).
Proof. vm_compute; reflexivity. Qed.
Example children_pulls_a0 :
  de_run DChildren (root t0) [true; false; false; true; true] a0
  = Ok (de_spec (map root (kids t0)) [true; false; false; true; true]).
Proof. vm_compute; reflexivity. Qed.

Section RoseInd.
  Variable P : rose -> Prop.
  Hypothesis HT : forall x ks, Forall P ks -> P (T x ks).
  Fixpoint rose_ind' (t : rose) : P t :=
    match t with
    | T x ks =>
        HT x ks ((fix go (l : list rose) : Forall P l :=
                    match l with
                    | [] => @Forall_nil _ P
                    | k :: r => @Forall_cons _ P k r (rose_ind' k) (go r)
                    end) ks)
    end.
End RoseInd.

Definition eid (e : edge) : nid := match e with Start y => y | End_ y => y end.

Lemma euler_unfold : forall x ks, euler (T x ks) = Start x :: flat_map euler ks ++ [End_ x].
Proof. reflexivity. Qed.

Lemma ids_unfold : forall x ks, ids (T x ks) = x :: flat_map ids ks.
Proof. reflexivity. Qed.

Lemma euler_hd : forall t, hd_error (euler t) = Some (Start (root t)).
Proof. intros [x ks]. reflexivity. Qed.

Lemma euler_last : forall t, last_error (euler t) = Some (End_ (root t)).
Proof.
  intros [x ks]. rewrite euler_unfold.
  change (Start x :: flat_map euler ks ++ [End_ x]) with ((Start x :: flat_map euler ks) ++ [End_ x]).
  apply last_error_snoc.
Qed.

Lemma root_in_ids : forall t, In (root t) (ids t).
Proof. intros [x ks]. left. reflexivity. Qed.

Lemma in_euler_ids : forall t e, In e (euler t) -> In (eid e) (ids t).
Proof.
  induction t as [x ks IH] using rose_ind'. intros e H.
  rewrite euler_unfold in H. rewrite ids_unfold.
  destruct H as [<-|H]; [left; reflexivity|].
  apply in_app_or in H. destruct H as [H|[<-|[]]]; [|left; reflexivity].
  right. apply in_flat_map in H. destruct H as (k & Hk & He).
  apply in_flat_map. exists k. split; auto.
  rewrite Forall_forall in IH. apply IH; auto.
Qed.

Lemma in_forest_euler_ids : forall ks e, In e (flat_map euler ks) -> In (eid e) (flat_map ids ks).
Proof.
  intros ks e H. apply in_flat_map in H. destruct H as (k & Hk & He).
  apply in_flat_map. exists k. split; auto. apply in_euler_ids; auto.
Qed.

Lemma euler_length : forall t, length (euler t) = 2 * length (ids t).
Proof.
  induction t as [x ks IH] using rose_ind'.
  rewrite euler_unfold, ids_unfold. cbn [length]. rewrite app_length. cbn [length].
  assert (E : length (flat_map euler ks) = 2 * length (flat_map ids ks)).
  { induction IH as [|k r Hk _ IHr]; [reflexivity|].
    cbn [flat_map]. rewrite !app_length, Hk, IHr. lia. }
  rewrite E. lia.
Qed.

Lemma starts_euler : forall t, starts (euler t) = ids t.
Proof.
  induction t as [x ks IH] using rose_ind'.
  rewrite euler_unfold, ids_unfold. unfold starts in *. cbn [flat_map app].
  rewrite flat_map_app. cbn [flat_map app]. rewrite app_nil_r. f_equal.
  induction IH as [|k r Hk _ IHr]; [reflexivity|].
  cbn [flat_map]. rewrite flat_map_app, Hk, IHr. reflexivity.
Qed.

Lemma length_kids_le : forall ks : list rose, length ks <= length (flat_map ids ks).
Proof.
  induction ks as [|[c kc] r IH]; [reflexivity|].
  cbn [flat_map]. rewrite app_length, ids_unfold. cbn [length]. lia.
Qed.

Lemma in_roots_ids : forall ks y, In y (map root ks) -> In y (flat_map ids ks).
Proof.
  intros ks y H. apply in_map_iff in H. destruct H as (k & <- & Hk).
  apply in_flat_map. exists k. split; auto. apply root_in_ids.
Qed.

Lemma NoDup_roots : forall ks, NoDup (map idx (flat_map ids ks)) -> NoDup (map idx (map root ks)).
Proof.
  induction ks as [|[c kc] r IH]; intros H; [constructor|].
  cbn [flat_map] in H. rewrite ids_unfold in H. rewrite map_app in H.
  cbn [map] in H. cbn [app] in H. inversion H as [|? ? Hc Hr]; subst.
  apply NoDup_app_inv in Hr. destruct Hr as (_ & Hr & _).
  cbn [map root]. constructor; auto.
  intros Hi. apply Hc. apply in_or_app. right.
  apply in_map_iff in Hi. destruct Hi as (y & Ey & Hy).
  apply in_map_iff. exists y. split; auto. apply in_roots_ids; auto.
Qed.

Lemma embeds_node_at : forall a t, embeds a t -> forall y, In y (ids t) -> exists n, node_at a y n.
Proof.
  intros a. induction t as [x ks IH] using rose_ind'. intros E y Hy.
  inversion E as [x' ks' n Hn Hf Hl Hc Hks]; subst.
  rewrite ids_unfold in Hy. destruct Hy as [<-|Hy]; [eauto|].
  apply in_flat_map in Hy. destruct Hy as (k & Hk & Hy).
  rewrite Forall_forall in IH, Hks. apply (IH k); auto.
Qed.

(* pigeonhole on distinct in-range indices *)
Lemma tree_in_bound : forall a t, tree_in a t -> length (ids t) <= length (nodes a).
Proof.
  intros a t [E ND]. rewrite <- (map_length idx). apply NoDup_idx_bound; auto.
  intros i Hi. apply in_map_iff in Hi. destruct Hi as (y & <- & Hy).
  destruct (embeds_node_at a t E y Hy) as (n & Hn). unfold node_at in Hn.
  apply nth_error_Some. congruence.
Qed.

Lemma chain_from_linked : forall a p pv xs, chain_from a p pv xs -> linked a xs.
Proof.
  intros a p pv xs. revert pv. induction xs as [|x r IH]; intros pv H; [exact I|].
  destruct H as (n & Hn & Hp & Hpv & Hnx & Hc).
  destruct r as [|y r'].
  - exists n. exact Hn.
  - pose proof (IH _ Hc) as Hl.
    destruct Hc as (m & Hm & Hpm & Hpvm & _).
    exists n, m. repeat split; auto.
Qed.

Lemma nt_start : forall a x n, node_at a x n ->
  next_traverse (Start x) a
  = Ok (match first n with Some c => Some (Start c) | None => Some (End_ x) end).
Proof.
  unfold node_at. intros a x n H. unfold next_traverse, rbind, rrdi, rrd. rewrite H.
  destruct (first n); reflexivity.
Qed.

Lemma nt_end : forall a x n, node_at a x n ->
  next_traverse (End_ x) a
  = Ok (match next n with Some s => Some (Start s) | None => option_map End_ (parent n) end).
Proof.
  unfold node_at. intros a x n H. unfold next_traverse, rbind, rrdi, rrd. rewrite H.
  destruct (next n); reflexivity.
Qed.

Lemma pt_end : forall a x n, node_at a x n ->
  prev_traverse (End_ x) a
  = Ok (match last n with Some c => Some (End_ c) | None => Some (Start x) end).
Proof.
  unfold node_at. intros a x n H. unfold prev_traverse, rbind, rrdi, rrd. rewrite H.
  destruct (last n); reflexivity.
Qed.

Lemma pt_start : forall a x n, node_at a x n ->
  prev_traverse (Start x) a
  = Ok (match prev n with Some s => Some (End_ s) | None => option_map Start (parent n) end).
Proof.
  unfold node_at. intros a x n H. unfold prev_traverse, rbind, rrdi, rrd. rewrite H.
  destruct (prev n); reflexivity.
Qed.

(* consecutive edges of l are related by R *)
Fixpoint path (R : edge -> edge -> Prop) (l : list edge) : Prop :=
  match l with
  | [] => True
  | e :: r => match r with [] => True | e' :: _ => R e e' end /\ path R r
  end.

Lemma path_app : forall R l1 l2, path R l1 -> path R l2 ->
  (forall e e', last_error l1 = Some e -> hd_error l2 = Some e' -> R e e') ->
  path R (l1 ++ l2).
Proof.
  intros R. induction l1 as [|x r IH]; intros l2 H1 H2 J; [exact H2|].
  destruct H1 as [Hx Hr]. cbn [app path]. split.
  - destruct r as [|y r']; cbn [app].
    + destruct l2 as [|e' l2']; [exact I|]. apply J; reflexivity.
    + exact Hx.
  - apply IH; auto. intros e e' He He'. apply J; auto.
    destruct r as [|y r']; [discriminate|]. rewrite last_error_cons. exact He.
Qed.

Lemma path_impl : forall (R R' : edge -> edge -> Prop) l,
  (forall e e', R e e' -> R' e e') -> path R l -> path R' l.
Proof.
  intros R R' l H. induction l as [|x r IH]; intros Hp; [exact I|].
  destruct Hp as [Hx Hr]. split; auto. destruct r; auto.
Qed.

Lemma path_rev : forall R l, path R l -> path (fun e e' => R e' e) (rev l).
Proof.
  intros R. induction l as [|x r IH]; intros H; [exact I|].
  destruct H as [Hx Hr]. cbn [rev]. apply path_app; auto.
  - cbn. auto.
  - intros e e' He He'. rewrite last_error_rev in He. inversion He'; subst e'.
    destruct r as [|y r']; [discriminate|]. inversion He; subst e. exact Hx.
Qed.

Lemma path_nth : forall R l i e e', path R l ->
  nth_error l i = Some e -> nth_error l (S i) = Some e' -> R e e'.
Proof.
  intros R. induction l as [|x r IH]; intros i e e' H H1 H2.
  - destruct i; discriminate.
  - destruct H as [Hx Hr]. destruct i as [|i].
    + cbn in H1. inversion H1; subst x. destruct r as [|y r']; [discriminate|].
      cbn in H2. inversion H2; subst y. exact Hx.
    + cbn [nth_error] in H1. change (nth_error (x :: r) (S (S i))) with (nth_error r (S i)) in H2.
      eapply IH; eauto.
Qed.

(* e' comes after e in the tour, and e before e' in the reverse tour *)
Definition step (a : arena) (e e' : edge) : Prop :=
  next_traverse e a = Ok (Some e') /\ prev_traverse e' a = Ok (Some e).

(* Every junction of the tour of [T x ks] leads into [first_edge r x], where r are the children of x still to
   come: from [Start x] (r = ks) or from the [End_] of the child before r. *)
Definition first_edge (ks : list rose) (x : nid) : edge :=
  match ks with [] => End_ x | k :: _ => Start (root k) end.
Definition edge_before (pv : option nid) (x : nid) : edge :=
  match pv with Some c => End_ c | None => Start x end.

Lemma forest_hd : forall ks x, hd_error (flat_map euler ks ++ [End_ x]) = Some (first_edge ks x).
Proof. intros [|[c kc] r] x; reflexivity. Qed.

Lemma nt_start_first : forall a x n ks, node_at a x n -> first n = hd_error (map root ks) ->
  next_traverse (Start x) a = Ok (Some (first_edge ks x)).
Proof. intros a x n ks Hn Hf. rewrite (nt_start _ _ _ Hn), Hf. destruct ks; reflexivity. Qed.

Lemma nt_end_first : forall a c n x ks, node_at a c n -> parent n = Some x -> next n = hd_error (map root ks) ->
  next_traverse (End_ c) a = Ok (Some (first_edge ks x)).
Proof. intros a c n x ks Hn Hp Hf. rewrite (nt_end _ _ _ Hn), Hf, Hp. destruct ks; reflexivity. Qed.

(* pv is the child of x before ks, and ks reach to x's last child *)
Lemma pt_first : forall a x n ks pv, node_at a x n -> chain_from a x pv (map root ks) ->
  last n = or_else (last_error (map root ks)) pv ->
  prev_traverse (first_edge ks x) a = Ok (Some (edge_before pv x)).
Proof.
  intros a x n ks pv Hn Hc Hl. destruct ks as [|k r]; cbn [first_edge].
  - rewrite (pt_end _ _ _ Hn), Hl. destruct pv; reflexivity.
  - destruct Hc as (m & Hm & Hp & Hpv & _).
    rewrite (pt_start _ _ _ Hm), Hpv, Hp. destruct pv; reflexivity.
Qed.

Lemma forest_path : forall a x n, node_at a x n -> forall ks pv,
  chain_from a x pv (map root ks) -> last n = or_else (last_error (map root ks)) pv ->
  Forall (fun k => path (step a) (euler k)) ks ->
  path (step a) (flat_map euler ks ++ [End_ x]).
Proof.
  intros a x n Hn. induction ks as [|k r IH]; intros pv Hc Hl HF; [cbn; auto|].
  cbn [map] in Hc. destruct Hc as (m & Hm & Hp & _ & Hnx & Hc).
  inversion HF as [|? ? Hk Hr]; subst.
  assert (Hl' : last n = or_else (last_error (map root r)) (Some (root k))).
  { rewrite Hl. destruct r; [reflexivity|]. cbn [map]. rewrite last_error_cons. reflexivity. }
  cbn [flat_map]. rewrite <- app_assoc. apply path_app; auto.
  - exact (IH _ Hc Hl' Hr).
  - intros e e'. rewrite euler_last, forest_hd. intros [= <-] [= <-]. split.
    + exact (nt_end_first _ _ _ _ _ Hm Hp Hnx).
    + exact (pt_first _ _ _ _ _ Hn Hc Hl').
Qed.

Lemma euler_path : forall a t, embeds a t -> path (step a) (euler t).
Proof.
  intros a. induction t as [x ks IH] using rose_ind'. intros E.
  inversion E as [x' ks' n Hn Hf Hl Hc Hks]; subst.
  assert (Hl' : last n = or_else (last_error (map root ks)) None)
    by (rewrite Hl; destruct (last_error _); reflexivity).
  change (path (step a) ([Start x] ++ flat_map euler ks ++ [End_ x])). apply path_app.
  - cbn. auto.
  - apply (forest_path a x n Hn ks None Hc Hl'). rewrite Forall_forall in *. auto.
  - intros e e'. rewrite forest_hd. intros [= <-] [= <-]. split.
    + exact (nt_start_first _ _ _ _ Hn Hf).
    + exact (pt_first _ _ _ _ _ Hn Hc Hl').
Qed.

(* consecutive edges of the Euler tour are exactly one next_traverse / prev_traverse step apart *)
Theorem euler_steps : forall a t i e e', tree_in a t ->
  nth_error (euler t) i = Some e -> nth_error (euler t) (S i) = Some e' ->
  next_traverse e a = Ok (Some e') /\ prev_traverse e' a = Ok (Some e).
Proof.
  intros a t i e e' [E _] H1 H2.
  exact (path_nth (step a) (euler t) i e e' (euler_path a t E) H1 H2).
Qed.

Lemma traverse_loop_none : forall f r a, traverse_loop f r None a = Ok [].
Proof. intros [|f] r a; reflexivity. Qed.

Lemma rtraverse_loop_none : forall f r a, rtraverse_loop f r None a = Ok [].
Proof. intros [|f] r a; reflexivity. Qed.

Lemma snoc_is_cons : forall {A} (l : list A) z, exists e q, l ++ [z] = e :: q.
Proof. intros A [|x l] z; cbn; eauto. Qed.

(* [traverse_loop] and [rtraverse_loop] are one loop: emit the current edge, move on by [nx], stop after
   [stop].  Such a loop follows any [nx]-path that ends at its first [stop]. *)
Section Follow.
  Variables (a : arena) (nx : edge -> R (option edge)) (stop : edge)
            (loop : nat -> option edge -> R (list edge)).
  Hypothesis loop_none : forall f, loop f None a = Ok [].
  Hypothesis loop_some : forall f e, loop (S f) (Some e) a
    = (nn <- (if edge_eqb e stop then rret None else nx e) ;; rest <- loop f nn ;; rret (e :: rest))%rd a.

  Lemma loop_follow : forall l fuel,
    path (fun e e' => nx e a = Ok (Some e')) (l ++ [stop]) -> ~ In stop l -> length l < fuel ->
    loop fuel (hd_error (l ++ [stop])) a = Ok (l ++ [stop]).
  Proof.
    induction l as [|e l IH]; intros fuel Hp Hn Hlen.
    - destruct fuel as [|f]; [inversion Hlen|].
      cbn [app hd_error]. rewrite loop_some. unfold rbind. rewrite edge_eqb_refl.
      unfold rret. rewrite loop_none. reflexivity.
    - destruct fuel as [|f]; [inversion Hlen|].
      cbn [length] in Hlen. specialize (IH f).
      cbn [app] in Hp. destruct (snoc_is_cons l stop) as (e2 & q & Eq).
      rewrite Eq in Hp, IH. destruct Hp as [Hs Hp].
      cbn [app hd_error]. rewrite loop_some. unfold rbind.
      rewrite edge_eqb_neq by (intros ->; apply Hn; left; reflexivity).
      rewrite Hs, Eq. cbn [hd_error] in IH. rewrite IH; auto.
      + intros Hi. apply Hn. right. exact Hi.
      + lia.
  Qed.
End Follow.

Lemma root_not_in_forest : forall x ks, NoDup (map idx (ids (T x ks))) -> ~ In x (flat_map ids ks).
Proof.
  intros x ks H Hi. rewrite ids_unfold in H. cbn [map] in H.
  inversion H as [|? ? Hx _]; subst. apply Hx. apply in_map. exact Hi.
Qed.

Lemma trav_fuel_enough : forall a t, tree_in a t -> length (euler t) < trav_fuel a.
Proof.
  intros a t H. pose proof (tree_in_bound a t H). rewrite euler_length.
  unfold trav_fuel. lia.
Qed.

Theorem traverse_euler : forall a t, tree_in a t -> traverse (root t) a = Ok (euler t).
Proof.
  intros a [x ks] H. pose proof (trav_fuel_enough a _ H) as Hfuel. destruct H as [E ND].
  apply (loop_follow a next_traverse (End_ x) (fun f => traverse_loop f x)
           (fun f => traverse_loop_none f x a) (fun _ _ => eq_refl) (Start x :: flat_map euler ks)).
  - eapply path_impl; [|exact (euler_path a _ E)]. intros e e' [Hs _]. exact Hs.
  - intros [Hi|Hi]; [discriminate|].
    apply in_forest_euler_ids in Hi. exact (root_not_in_forest x ks ND Hi).
  - rewrite euler_unfold in Hfuel. cbn [length] in *. rewrite app_length in Hfuel. cbn [length] in Hfuel. lia.
Qed.

Lemma rev_euler : forall x ks,
  rev (euler (T x ks)) = (End_ x :: rev (flat_map euler ks)) ++ [Start x].
Proof.
  intros x ks. rewrite euler_unfold. cbn [rev]. rewrite rev_unit. reflexivity.
Qed.

Theorem reverse_traverse_euler : forall a t, tree_in a t ->
  reverse_traverse (root t) a = Ok (rev (euler t)).
Proof.
  intros a [x ks] H. pose proof (trav_fuel_enough a _ H) as Hfuel. destruct H as [E ND].
  pose proof (path_rev _ _ (euler_path a _ E)) as Hp.
  rewrite <- rev_length in Hfuel. rewrite rev_euler in *.
  apply (loop_follow a prev_traverse (Start x) (fun f => rtraverse_loop f x)
           (fun f => rtraverse_loop_none f x a) (fun _ _ => eq_refl) (End_ x :: rev (flat_map euler ks))).
  - eapply path_impl; [|exact Hp]. intros e e' [_ Hs]. exact Hs.
  - intros [Hi|Hi]; [discriminate|].
    apply in_rev in Hi. apply in_forest_euler_ids in Hi. exact (root_not_in_forest x ks ND Hi).
  - rewrite app_length in Hfuel. cbn [length] in *. lia.
Qed.

Theorem descendants_preorder : forall a t, tree_in a t -> descendants (root t) a = Ok (ids t).
Proof.
  intros a t H. unfold descendants, rbind. rewrite (traverse_euler a t H).
  unfold rret. rewrite starts_euler. reflexivity.
Qed.

(* a run linked forwards by f and backwards by g.  The specification's [linked] is [glinked next prev]; reversing
   the run swaps f and g ([glinked_rev]), so every statement about a forward iterator gives the one about its
   reverse. *)
Inductive glinked (f g : node -> option nid) (a : arena) : list nid -> Prop :=
  | gl_nil : glinked f g a []
  | gl_one : forall x n, node_at a x n -> glinked f g a [x]
  | gl_cons : forall x y r n m, node_at a x n -> node_at a y m -> f n = Some y -> g m = Some x ->
      glinked f g a (y :: r) -> glinked f g a (x :: y :: r).

(* what adding y behind a run whose last element is o requires *)
Definition junc (f g : node -> option nid) (a : arena) (o : option nid) (y : nid) : Prop :=
  match o with
  | None => exists n, node_at a y n
  | Some x => exists n m, node_at a x n /\ node_at a y m /\ f n = Some y /\ g m = Some x
  end.

Lemma linked_glinked : forall a xs, linked a xs -> glinked next prev a xs.
Proof.
  intros a. induction xs as [|x r IH]; intros H; [constructor|].
  destruct r as [|y r'].
  - destruct H as (n & Hn). econstructor; eauto.
  - destruct H as (n & m & Hn & Hm & Hnx & Hpv & Hl). econstructor; eauto.
Qed.

Lemma glinked_tail : forall f g a x r, glinked f g a (x :: r) -> glinked f g a r.
Proof. intros f g a x r H. inversion H; subst; auto. constructor. Qed.

Lemma glinked_snoc : forall f g a xs y, glinked f g a xs -> junc f g a (last_error xs) y ->
  glinked f g a (xs ++ [y]).
Proof.
  intros f g a xs y H. induction H as [|x n Hn|x y0 r n m Hn Hm Hf Hg Hr IH]; intros J.
  - destruct J as (n & Hn). econstructor; eauto.
  - destruct J as (n' & m & Hn' & Hm & Hf & Hg). cbn [app].
    eapply gl_cons; eauto. econstructor; eauto.
  - rewrite last_error_cons in J. cbn [app]. eapply gl_cons; eauto.
Qed.

Lemma glinked_rev : forall f g a xs, glinked f g a xs -> glinked g f a (rev xs).
Proof.
  intros f g a xs H. induction H as [|x n Hn|x y r n m Hn Hm Hf Hg Hr IH].
  - constructor.
  - econstructor; eauto.
  - change (rev (x :: y :: r)) with (rev (y :: r) ++ [x]).
    apply glinked_snoc; auto. rewrite last_error_rev. cbn. eauto 10.
Qed.

Lemma glinked_snoc_inv : forall f g a xs y, glinked f g a (xs ++ [y]) ->
  glinked f g a xs /\ junc f g a (last_error xs) y.
Proof.
  intros f g a xs y H. apply glinked_rev in H. rewrite rev_unit in H. split.
  - rewrite <- (rev_involutive xs). apply glinked_rev. exact (glinked_tail _ _ _ _ _ H).
  - rewrite <- hd_error_rev. inversion H; subst; cbn; eauto 10.
Qed.

Lemma de_spec_back : forall s z ps, de_spec (s ++ [z]) (false :: ps) = Some z :: de_spec s ps.
Proof.
  intros [|x r] z ps; [reflexivity|].
  cbn [app de_spec]. rewrite last_last.
  change (x :: r ++ [z]) with ((x :: r) ++ [z]). rewrite removelast_last. reflexivity.
Qed.

Lemma de_next_run : forall f g a x r, glinked f g a (x :: r) -> NoDup (map idx (x :: r)) ->
  de_next f (Some x, last_error (x :: r)) a = Ok (Some x, (hd_error r, last_error r)).
Proof.
  intros f g a x [|y r'] HL ND.
  - cbn [last_error List.last de_next]. rewrite nid_eqb_refl. reflexivity.
  - inversion HL as [| |? ? ? n m Hn Hm Hf Hg Hr]; subst.
    cbn [map] in ND. inversion ND as [|? ? Hx _]; subst.
    cbn [last_error de_next]. rewrite nid_eqb_idx_neq.
    + unfold node_at in Hn. unfold rbind, rrdi, rrd. rewrite Hn, Hf, last_cons. reflexivity.
    + intros Eq. apply Hx. rewrite Eq. apply (in_map idx (y :: r')), last_in.
Qed.

Lemma de_next_back_run : forall f g a s z, glinked f g a (s ++ [z]) -> NoDup (map idx (s ++ [z])) ->
  de_next_back g (hd_error (s ++ [z]), Some z) a = Ok (Some z, (hd_error s, last_error s)).
Proof.
  intros f g a s z HL ND. destruct (glinked_snoc_inv _ _ _ _ _ HL) as (_ & J).
  destruct s as [|x r].
  - cbn [app hd_error de_next_back]. rewrite nid_eqb_refl. reflexivity.
  - cbn [app hd_error de_next_back]. rewrite nid_eqb_idx_neq.
    + destruct J as (n & m & Hn & Hm & Hf & Hg).
      unfold node_at in Hm. unfold rbind, rrdi, rrd. rewrite Hm, Hg. reflexivity.
    + rewrite map_app in ND. intros Eq. apply (NoDup_app_disj _ _ ND (idx x)).
      * left. reflexivity.
      * left. symmetry. exact Eq.
Qed.

Lemma NoDup_idx_tail : forall (x : nid) r, NoDup (map idx (x :: r)) -> NoDup (map idx r).
Proof. intros x r H. inversion H; assumption. Qed.

Lemma de_pulls_gen : forall k a pulls xs,
  glinked (de_fwd k) (de_bwd k) a xs -> NoDup (map idx xs) ->
  de_pulls k pulls (hd_error xs, last_error xs) a = Ok (de_spec xs pulls).
Proof.
  intros k a. induction pulls as [|b ps IH]; intros xs HL ND; [reflexivity|].
  cbn [de_pulls]. unfold rbind. destruct b.
  - destruct xs as [|x r].
    + cbn [hd_error last_error]. cbn [de_next]. unfold rret. cbn [snd fst].
      rewrite (IH [] HL ND : de_pulls k ps (None, None) a = _). reflexivity.
    + change (hd_error (x :: r)) with (Some x). rewrite (de_next_run _ _ _ _ _ HL ND). cbn [snd fst].
      rewrite (IH r (glinked_tail _ _ _ _ _ HL) (NoDup_idx_tail _ _ ND)). reflexivity.
  - destruct (snoc_case xs) as [->|(s & z & ->)].
    + cbn [hd_error last_error]. cbn [de_next_back]. unfold rret. cbn [snd fst].
      rewrite (IH [] HL ND : de_pulls k ps (None, None) a = _). reflexivity.
    + rewrite last_error_snoc, (de_next_back_run _ _ _ _ _ HL ND), de_spec_back. cbn [snd fst].
      rewrite map_app in ND.
      rewrite (IH s (proj1 (glinked_snoc_inv _ _ _ _ _ HL)) (NoDup_app_left _ _ ND)). reflexivity.
Qed.

Lemma de_collect_gen : forall k a xs fuel,
  glinked (de_fwd k) (de_bwd k) a xs -> NoDup (map idx xs) -> length xs < fuel ->
  de_collect k fuel (hd_error xs, last_error xs) a = Ok xs.
Proof.
  intros k a. induction xs as [|x r IH]; intros fuel HL ND Hlen.
  - destruct fuel as [|f]; [inversion Hlen|]. reflexivity.
  - destruct fuel as [|f]; [inversion Hlen|]. cbn [length] in Hlen.
    cbn [de_collect]. unfold rbind. change (hd_error (x :: r)) with (Some x).
    rewrite (de_next_run _ _ _ _ _ HL ND).
    rewrite (IH f (glinked_tail _ _ _ _ _ HL) (NoDup_idx_tail _ _ ND)); [reflexivity|lia].
Qed.

(* the double-ended state machine obeys the DoubleEndedIterator laws on any linked run *)
Theorem de_pulls_fwd : forall a xs pulls, linked a xs -> NoDup (map idx xs) ->
  de_pulls DChildren pulls (hd_error xs, last_error xs) a = Ok (de_spec xs pulls)
  /\ de_pulls DFollowing pulls (hd_error xs, last_error xs) a = Ok (de_spec xs pulls).
Proof.
  intros a xs pulls HL ND. apply linked_glinked in HL.
  split; apply de_pulls_gen; auto.
Qed.

Lemma NoDup_idx_rev : forall xs : list nid, NoDup (map idx xs) -> NoDup (map idx (rev xs)).
Proof. intros xs H. rewrite map_rev. apply NoDup_rev. exact H. Qed.

Theorem de_pulls_bwd : forall a xs pulls, linked a xs -> NoDup (map idx xs) ->
  de_pulls DPreceding pulls (last_error xs, hd_error xs) a = Ok (de_spec (rev xs) pulls).
Proof.
  intros a xs pulls HL ND. apply linked_glinked in HL. apply glinked_rev in HL.
  rewrite <- (last_error_rev xs), <- (hd_error_rev xs).
  apply de_pulls_gen; auto. apply NoDup_idx_rev; auto.
Qed.

Theorem de_collect_fwd : forall a xs fuel, linked a xs -> NoDup (map idx xs) -> length xs < fuel ->
  de_collect DChildren fuel (hd_error xs, last_error xs) a = Ok xs
  /\ de_collect DFollowing fuel (hd_error xs, last_error xs) a = Ok xs.
Proof.
  intros a xs fuel HL ND Hlen. apply linked_glinked in HL.
  split; apply de_collect_gen; auto.
Qed.

Theorem de_collect_bwd : forall a xs fuel, linked a xs -> NoDup (map idx xs) -> length xs < fuel ->
  de_collect DPreceding fuel (last_error xs, hd_error xs) a = Ok (rev xs).
Proof.
  intros a xs fuel HL ND Hlen. apply linked_glinked in HL. apply glinked_rev in HL.
  rewrite <- (last_error_rev xs), <- (hd_error_rev xs).
  apply de_collect_gen; auto.
  - apply NoDup_idx_rev; auto.
  - rewrite rev_length. exact Hlen.
Qed.

Lemma kids_facts : forall a x ks, tree_in a (T x ks) ->
  exists n, node_at a x n /\ first n = hd_error (map root ks) /\ last n = last_error (map root ks)
            /\ chain_from a x None (map root ks)
            /\ NoDup (map idx (map root ks))
            /\ S (length (map root ks)) <= length (nodes a).
Proof.
  intros a x ks H. pose proof (tree_in_bound _ _ H) as Hb. destruct H as [E ND].
  inversion E as [x' ks' n Hn Hf Hl Hc Hks]; subst.
  exists n. repeat split; auto.
  - rewrite ids_unfold in ND. cbn [map] in ND. inversion ND; subst. apply NoDup_roots; auto.
  - rewrite ids_unfold in Hb. cbn [length] in Hb. rewrite map_length.
    pose proof (length_kids_le ks). lia.
Qed.

Theorem children_kids : forall a t, tree_in a t -> children (root t) a = Ok (map root (kids t)).
Proof.
  intros a [x ks] H. destruct (kids_facts a x ks H) as (n & Hn & Hf & Hl & Hc & ND & Hlen).
  cbn [root kids]. unfold children, de_iter, de_new. unfold node_at in Hn.
  unfold rbind at 1. unfold rbind at 1. unfold rrdi, rrd. rewrite Hn. unfold rret at 1.
  rewrite Hf, Hl.
  apply (de_collect_fwd a (map root ks)); auto.
  - eapply chain_from_linked; eauto.
  - unfold chain_fuel. lia.
Qed.

Theorem children_pulls : forall a t pulls, tree_in a t ->
  de_run DChildren (root t) pulls a = Ok (de_spec (map root (kids t)) pulls).
Proof.
  intros a [x ks] pulls H. destruct (kids_facts a x ks H) as (n & Hn & Hf & Hl & Hc & ND & Hlen).
  cbn [root kids]. unfold de_run, de_new. unfold node_at in Hn.
  unfold rbind at 1. unfold rbind at 1. unfold rrdi, rrd. rewrite Hn. unfold rret at 1.
  rewrite Hf, Hl.
  apply (de_pulls_fwd a (map root ks)); auto.
  eapply chain_from_linked; eauto.
Qed.

Lemma iter_collect_none : forall nf fuel a, iter_collect nf fuel None a = Ok [].
Proof. intros nf [|f] a; reflexivity. Qed.

Lemma iter_collect_run : forall f g a xs, glinked f g a xs ->
  forall fuel, (forall z, last_error xs = Some z -> exists m, node_at a z m /\ f m = None) ->
  length xs <= fuel -> iter_collect f fuel (hd_error xs) a = Ok xs.
Proof.
  intros f g a xs H. induction H as [|x n Hn|x y r n m Hn Hm Hf Hg Hr IH]; intros fuel Hend Hlen.
  - apply iter_collect_none.
  - destruct fuel as [|fuel]; [inversion Hlen|].
    destruct (Hend x eq_refl) as (n' & Hn' & Hf). rewrite (node_at_fun _ _ _ _ Hn' Hn) in Hf.
    cbn [hd_error iter_collect]. unfold node_at in Hn. unfold rbind, rrdi, rrd.
    rewrite Hn, Hf, iter_collect_none. reflexivity.
  - destruct fuel as [|fuel]; [inversion Hlen|]. cbn [length] in Hlen.
    cbn [hd_error iter_collect]. unfold node_at in Hn. unfold rbind, rrdi, rrd. rewrite Hn, Hf.
    rewrite last_error_cons in Hend. change (Some y) with (hd_error (y :: r)).
    rewrite (IH fuel Hend); [reflexivity|cbn [length]; lia].
Qed.

Theorem reverse_children_kids : forall a t, tree_in a t ->
  reverse_children (root t) a = Ok (rev (map root (kids t))).
Proof.
  intros a [x ks] H. destruct (kids_facts a x ks H) as (n & Hn & Hf & Hl & Hc & ND & Hlen).
  cbn [root kids]. unfold reverse_children. unfold node_at in Hn.
  unfold rbind, rrdi, rrd. rewrite Hn, Hl, <- hd_error_rev.
  apply (iter_collect_run prev next).
  - apply glinked_rev, linked_glinked. eapply chain_from_linked; eauto.
  - intros z Hz. rewrite last_error_rev in Hz. destruct (map root ks) as [|z' r]; [discriminate|].
    inversion Hz; subst z'. destruct Hc as (m & Hm & _ & Hpv & _). eauto.
  - rewrite rev_length. unfold chain_fuel. lia.
Qed.

Print Assumptions euler_steps.
Print Assumptions traverse_euler.
Print Assumptions reverse_traverse_euler.
Print Assumptions descendants_preorder.
Print Assumptions children_kids.
Print Assumptions reverse_children_kids.
Print Assumptions de_pulls_fwd.
Print Assumptions de_pulls_bwd.
Print Assumptions de_collect_fwd.
Print Assumptions de_collect_bwd.
Print Assumptions children_pulls.
Print Assumptions euler_length.
Print Assumptions tree_in_bound.
Print Assumptions chain_from_linked.
Print Assumptions tree_in_a0.
Print Assumptions traverse_a0.
