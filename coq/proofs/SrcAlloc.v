(* SrcAlloc.v — gen/GenAlloc.v (arena.rs: allocation, free list, lookups; re-translated on every run) is the
   model's ArenaM.v.  The model's ghost results (dropped payloads) are discarded with then_ret. *)
From IT.proofs Require Import SrcTac SrcStamp.
From IT.gen Require Import GenStamp GenAlloc.
Open Scope mon_scope.

Lemma src_pop_front_free_node dbg a : g_Arena_pop_front_free_node dbg a = pop_front_free_node a.
Proof. unfold g_Arena_pop_front_free_node, pop_front_free_node. lockstep. Qed.
#[export] Hint Resolve src_pop_front_free_node : src.

(* Node::reuse on a node value, as the statements the model's node_reuse makes of it *)
Lemma node_reuse_val_seq dbg n v a :
  liftres (node_reuse_val dbg n v) a =
  (dassert dbg (match data n with NextFree _ => true | Data _ => false end) ;;;
   dassert dbg (node_is_removed n) ;;;
   s' <- liftres (st_reuse dbg (stamp n)) ;;
   ret (fresh_node s' (Data v))) a.
Proof.
  unfold node_reuse_val.
  destruct dbg, (data n), (node_is_removed n), (st_reuse _ (stamp n)); reflexivity.
Qed.
#[export] Hint Resolve node_reuse_val_seq : src.

Lemma src_new_node dbg v a : g_Arena_new_node dbg v a = new_node dbg v a.
Proof.
  unfold g_Arena_new_node, new_node, node_reuse; lockstep.
Qed.

Lemma src_free_node dbg x a : g_Arena_free_node dbg x a = then_ret (free_node dbg x) tt a.
Proof.
  unfold g_Arena_free_node, free_node. lockstep.
  (* empty free list: the debug build asserts a second time what has just been tested on last_free_slot *)
  destruct dbg; lockstep.
  match goal with E : lfree _ = None |- _ => rewrite E end. cbn [is_some]. lockstep.
Qed.
#[export] Hint Resolve src_new_node src_free_node : src.

Lemma src_clear dbg a : g_Arena_clear dbg a = then_ret clear tt a.
Proof. destruct a. reflexivity. Qed.

Lemma src_count dbg a : g_Arena_count dbg a = (a, Ok (ArenaM.count a)).
Proof. reflexivity. Qed.

Lemma src_is_empty dbg a : g_Arena_is_empty dbg a = (a, Ok (ArenaM.is_empty a)).
Proof. reflexivity. Qed.

Lemma src_get dbg x a : g_Arena_get dbg x a = (a, Ok (ArenaM.get a x)).
Proof. unfold g_Arena_get, ArenaM.get. lockstep. reflexivity. Qed.

(* NonZeroUsize is never 0 *)
Lemma src_get_node_id_at dbg i a : g_Arena_get_node_id_at dbg (S i) a = (a, Ok (get_node_id_at a (S i))).
Proof.
  unfold g_Arena_get_node_id_at, get_node_id_at.
  cbn [Nat.sub]. rewrite Nat.sub_0_r. lockstep.
  destruct (nth_error (nodes a) i) as [n|]; [|reflexivity]. lockstep.
  destruct (node_is_removed n); reflexivity.
Qed.

(* Arena::get_node_id: the pointer arithmetic.  The Vec's buffer is [len] slots of [size] bytes starting at
   address [base] (memory layout parameters); a `&Node<T>` is looked at as an address only. *)
From IT Require Import Value.
Require Import Lia.

Lemma src_get_node_id_inside dbg base size p a :
  (0 < size)%Z -> (base <= p)%Z -> (p < base + Z.of_nat (length (nodes a)) * size)%Z ->
  g_Arena_get_node_id dbg base size p a = (a, Ok (get_node_id a (InBuffer (Z.to_nat ((p - base) / size))))).
Proof.
  intros Hs Hlo Hhi. destruct a as [l ff lf]. cbn [nodes] in Hhi.
  unfold g_Arena_get_node_id, get_node_id, usub. mred.
  assert (Z.leb base p = true) as -> by (apply Z.leb_le; lia).
  assert (Z.ltb p (base + Z.of_nat (length l) * size) = true) as -> by (apply Z.ltb_lt; lia).
  mred.
  assert ((Z.to_nat ((p - base) / size) < length l)%nat) as Hk.
  { apply Nat2Z.inj_lt. rewrite Z2Nat.id by (apply Z.div_pos; lia).
    apply Z.div_lt_upper_bound; lia. }
  destruct (nth_error l (Z.to_nat ((p - base) / size))) as [n|] eqn:E.
  - reflexivity.
  - apply nth_error_None in E. lia.
Qed.

(* the address of slot k is resolved to slot k *)
Lemma src_get_node_id_slot dbg base size k a :
  (0 < size)%Z -> (k < length (nodes a))%nat ->
  g_Arena_get_node_id dbg base size (base + Z.of_nat k * size) a = (a, Ok (get_node_id a (InBuffer k))).
Proof.
  intros Hs Hk. rewrite src_get_node_id_inside; try lia.
  - replace (base + Z.of_nat k * size - base)%Z with (Z.of_nat k * size)%Z by lia.
    rewrite Z.div_mul by lia. rewrite Nat2Z.id. reflexivity.
  - apply Z.add_lt_mono_l. apply Z.mul_lt_mono_pos_r; lia.
Qed.

(* an address outside the buffer (another arena's buffer, a clone, the stack) is refused *)
Lemma src_get_node_id_outside dbg base size p a :
  (p < base \/ base + Z.of_nat (length (nodes a)) * size <= p)%Z ->
  g_Arena_get_node_id dbg base size p a = (a, Ok (get_node_id a Elsewhere)).
Proof.
  intros H. destruct a as [l ff lf]. cbn [nodes] in H. unfold g_Arena_get_node_id, get_node_id. mred.
  destruct H as [H|H].
  - assert (Z.leb base p = false) as -> by (apply Z.leb_gt; lia). reflexivity.
  - assert (Z.ltb p (base + Z.of_nat (length l) * size) = false) as -> by (apply Z.ltb_ge; lia).
    destruct (Z.leb base p); reflexivity.
Qed.
