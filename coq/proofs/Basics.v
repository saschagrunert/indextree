(* Basics.v — facts about identifiers and lists that the proof files share: decidable equality of ids,
   [hd_error] / [last_error], [NoDup] over concatenations, and the list surgery of the abstract forest
   operations ([remove_id], [subst_id], [ins_after], [ins_before], [nid_in]).  No operation of the crate is
   involved. *)
From IT Require Import Forest.
From Coq Require Import Lia.
Local Open Scope nat_scope.

Lemma nid_eqb_eq : forall x y, nid_eqb x y = true <-> x = y.
Proof.
  intros [i g] [j h]; unfold nid_eqb; cbn. rewrite andb_true_iff, Nat.eqb_eq, Z.eqb_eq.
  split; [intros [-> ->]; reflexivity | intros E; inversion E; auto].
Qed.
Lemma nid_eqb_refl : forall x, nid_eqb x x = true.
Proof. intros; now apply nid_eqb_eq. Qed.
Lemma nid_eqb_neq : forall x y, x <> y -> nid_eqb x y = false.
Proof. intros x y H. destruct (nid_eqb x y) eqn:E; auto. apply nid_eqb_eq in E; contradiction. Qed.
Lemma nid_eqb_false : forall x y, nid_eqb x y = false <-> x <> y.
Proof. intros. now rewrite <- not_true_iff_false, nid_eqb_eq. Qed.
Lemma nid_eqb_sym : forall x y, nid_eqb x y = nid_eqb y x.
Proof. intros. unfold nid_eqb. now rewrite Nat.eqb_sym, Z.eqb_sym. Qed.
Lemma nid_eqb_idx_neq : forall x y, idx x <> idx y -> nid_eqb x y = false.
Proof. intros x y H. apply nid_eqb_neq. intros ->. auto. Qed.
Lemma nid_eq_dec : forall x y : nid, {x = y} + {x <> y}.
Proof. intros. destruct (nid_eqb x y) eqn:E; [left; now apply nid_eqb_eq | right; now apply nid_eqb_false]. Qed.

Lemma onid_eqb_eq : forall x y, onid_eqb x y = true <-> x = y.
Proof.
  intros [x|] [y|]; cbn; try (split; congruence).
  rewrite nid_eqb_eq. split; congruence.
Qed.
Lemma onid_eqb_refl : forall x, onid_eqb x x = true.
Proof. intros; now apply onid_eqb_eq. Qed.
Lemma onid_eqb_false : forall x y, onid_eqb x y = false <-> x <> y.
Proof. intros. now rewrite <- not_true_iff_false, onid_eqb_eq. Qed.

Lemma edge_eqb_refl : forall e, edge_eqb e e = true.
Proof. intros [x|x]; cbn; apply nid_eqb_refl. Qed.
Lemma edge_eqb_neq : forall e e', e <> e' -> edge_eqb e e' = false.
Proof. intros [x|x] [y|y] H; cbn; auto; apply nid_eqb_neq; congruence. Qed.

Lemma node_at_fun : forall a x n m, node_at a x n -> node_at a x m -> n = m.
Proof. unfold node_at. intros a x n m H1 H2. rewrite H1 in H2. inversion H2. reflexivity. Qed.

Lemma last_cons : forall {A} (r : list A) (x y : A), List.last (y :: r) x = List.last r y.
Proof.
  induction r as [|z r IH]; intros; auto.
  change (List.last (y :: z :: r) x) with (List.last (z :: r) x). rewrite !IH. reflexivity.
Qed.
Lemma last_in : forall {A} (r : list A) (y d : A), In (List.last (y :: r) d) (y :: r).
Proof.
  intros A. induction r as [|z r IH]; intros y d; [left; reflexivity|].
  right. change (List.last (y :: z :: r) d) with (List.last (z :: r) d). apply IH.
Qed.
Lemma last_error_cons : forall {A} (x y : A) r, last_error (x :: y :: r) = last_error (y :: r).
Proof. intros. unfold last_error. now rewrite last_cons. Qed.
Lemma last_error_snoc : forall {A} (l : list A) x, last_error (l ++ [x]) = Some x.
Proof. intros A [|y l] x; [reflexivity|]. cbn [app last_error]. f_equal. apply last_last. Qed.
Lemma snoc_case : forall {A} (l : list A), l = [] \/ exists s z, l = s ++ [z].
Proof.
  intros A [|x r]; [now left|right].
  destruct (@exists_last _ (x :: r)) as (s & z & E); [discriminate|]. eauto.
Qed.
Lemma last_error_app : forall {A} (l l' : list A), last_error (l ++ l') = or_else (last_error l') (last_error l).
Proof.
  intros A l l'. destruct (snoc_case l') as [->|(s & z & ->)].
  - now rewrite app_nil_r.
  - now rewrite app_assoc, !last_error_snoc.
Qed.
Lemma hd_error_app : forall {A} (l l' : list A), hd_error (l ++ l') = or_else (hd_error l) (hd_error l').
Proof. intros A [|x l] l'; cbn; auto. Qed.
Lemma last_error_rev : forall {A} (l : list A), last_error (rev l) = hd_error l.
Proof. intros A [|x l]; [reflexivity|]. cbn [rev hd_error]. apply last_error_snoc. Qed.
Lemma hd_error_rev : forall {A} (l : list A), hd_error (rev l) = last_error l.
Proof. intros A l. rewrite <- (rev_involutive l) at 2. now rewrite last_error_rev. Qed.
Lemma last_error_In : forall {A} (l : list A) x, last_error l = Some x -> In x l.
Proof. intros A [|y l] x H; inversion H. rewrite <- (last_cons l y y). apply last_in. Qed.
Lemma hd_error_In : forall {A} (l : list A) x, hd_error l = Some x -> In x l.
Proof. intros A [|y l] x H; inversion H. now left. Qed.
Lemma last_error_None : forall {A} (l : list A), last_error l = None -> l = [].
Proof. intros A [|x l]; auto; discriminate. Qed.
Lemma hd_error_None : forall {A} (l : list A), hd_error l = None -> l = [].
Proof. intros A [|x l]; auto; discriminate. Qed.
Lemma last_error_split : forall {A} (l : list A) x, last_error l = Some x -> exists l', l = l' ++ [x].
Proof.
  intros A l x H. destruct (snoc_case l) as [->|(s & z & ->)]; [discriminate|].
  rewrite last_error_snoc in H. injection H as <-. eauto.
Qed.
Lemma hd_error_split : forall {A} (l : list A) x, hd_error l = Some x -> exists l', l = x :: l'.
Proof. intros A [|y l] x H; inversion H; eauto. Qed.

Lemma list_ext_nth : forall A (l l' : list A), (forall j, nth_error l j = nth_error l' j) -> l = l'.
Proof.
  induction l as [|x r IH]; intros [|y s] H; auto.
  - specialize (H 0); discriminate.
  - specialize (H 0); discriminate.
  - f_equal. + specialize (H 0). now inversion H. + apply IH. intros j. apply (H (S j)).
Qed.

Lemma nth_list_set : forall A (l : list A) i n v j, nth_error l i = Some n ->
  nth_error (list_set i v l) j = if Nat.eqb j i then Some v else nth_error l j.
Proof.
  induction l as [|x r IH]; intros i n v j H.
  - destruct i; discriminate.
  - destruct i as [|i], j as [|j]; cbn in *; auto. eapply IH; eauto.
Qed.

Lemma nth_list_set_eq : forall A (l : list A) i n v, nth_error l i = Some n ->
  nth_error (list_set i v l) i = Some v.
Proof. intros A l i n v H. now rewrite (nth_list_set _ _ _ _ _ i H), Nat.eqb_refl. Qed.

Lemma nth_list_set_neq : forall A (l : list A) i v j, j <> i ->
  nth_error (list_set i v l) j = nth_error l j.
Proof.
  induction l; intros [|i] v [|j] H; cbn; auto; try congruence; try (apply IHl; congruence).
Qed.

Lemma list_set_twice : forall A (l : list A) i v w, list_set i w (list_set i v l) = list_set i w l.
Proof. induction l; intros [|i] v w; cbn; auto. now rewrite IHl. Qed.

Lemma nth_error_lt : forall A (l : list A) i, (i < length l)%nat -> exists n, nth_error l i = Some n.
Proof.
  intros A l i H. destruct (nth_error l i) eqn:E; eauto.
  apply nth_error_None in E. lia.
Qed.

Lemma nth_error_some_lt : forall A (l : list A) i n, nth_error l i = Some n -> (i < length l)%nat.
Proof. intros A l i n H. apply nth_error_Some. congruence. Qed.

Lemma nth_snoc_neq : forall A (l : list A) x j, j <> length l -> nth_error (l ++ [x]) j = nth_error l j.
Proof.
  intros A l x j H. destruct (Nat.lt_ge_cases j (length l)).
  - now apply nth_error_app1.
  - assert (nth_error l j = None) as -> by (apply nth_error_None; lia).
    apply nth_error_None. rewrite app_length. cbn. lia.
Qed.

Lemma nth_snoc_eq : forall A (l : list A) x, nth_error (l ++ [x]) (length l) = Some x.
Proof. intros. rewrite nth_error_app2 by lia. now rewrite Nat.sub_diag. Qed.

Lemma Forall2_impl_in : forall A B (R1 R2 : A -> B -> Prop) l1 l2,
  (forall a b, In a l1 -> R1 a b -> R2 a b) -> Forall2 R1 l1 l2 -> Forall2 R2 l1 l2.
Proof.
  intros A B R1 R2 l1 l2 H F. induction F; constructor.
  - apply H; [now left|assumption].
  - apply IHF. intros a b Ha. apply H. now right.
Qed.

Lemma length_list_set : forall A (l : list A) i v, length (list_set i v l) = length l.
Proof. induction l as [|x r IH]; intros [|i] v; cbn; auto. Qed.

Lemma flat_map_ext_in : forall {A B} (f g : A -> list B) l,
  (forall x, In x l -> f x = g x) -> flat_map f l = flat_map g l.
Proof.
  intros A B f g. induction l as [|x l IH]; intros H; [reflexivity|]. cbn [flat_map].
  rewrite H by now left. f_equal. apply IH. intros y Hy. apply H. now right.
Qed.
Lemma flat_map_map : forall {A B C} (g : A -> B) (h : B -> list C) l,
  flat_map h (map g l) = flat_map (fun x => h (g x)) l.
Proof. intros A B C g h. induction l; cbn; auto. now rewrite IHl. Qed.
Lemma app_nil_iff : forall {A} (l l' : list A), l ++ l' = [] <-> l = [] /\ l' = [].
Proof. intros A l l'. split; [apply app_eq_nil | intros [-> ->]; reflexivity]. Qed.
Lemma flat_map_nil_iff : forall {A B} (f : A -> list B) l,
  flat_map f l = [] <-> forall x, In x l -> f x = [].
Proof.
  intros A B f. induction l as [|y l IH]; cbn [flat_map In].
  - split; [intros _ x [] | reflexivity].
  - rewrite app_nil_iff, IH. split.
    + intros [H1 H2] x [<-|Hx]; auto.
    + intros H. split; auto.
Qed.
Lemma in_nonempty_map : forall {A B} (g : A -> list B) c l,
  In c (filter nonempty (map g l)) <-> exists c0, In c0 l /\ g c0 = c /\ c <> [].
Proof.
  intros A B g c l. rewrite filter_In, in_map_iff. split.
  - intros [(c0 & E & H) N]. exists c0. destruct c; [discriminate | now repeat split].
  - intros (c0 & H & E & N). split; [now exists c0 | destruct c; [congruence | reflexivity]].
Qed.

Lemma forallb_combine_nth : forall {A} (P : A -> A -> bool) l l',
  (forall i n n', nth_error l i = Some n -> nth_error l' i = Some n' -> P n n' = true) ->
  forallb (fun p => P (fst p) (snd p)) (combine l l') = true.
Proof.
  intros A P. induction l as [|n l IH]; intros [|n' l'] H; cbn [combine forallb]; auto.
  cbn [fst snd]. rewrite (H 0 n n') by reflexivity. cbn [andb]. apply IH.
  intros i m m' H1 H2. apply (H (S i)); auto.
Qed.
Lemma list_sum_cons : forall x l, list_sum (x :: l) = x + list_sum l.
Proof. reflexivity. Qed.

Lemma NoDup_app_iff : forall {A} (l l' : list A),
  NoDup (l ++ l') <-> NoDup l /\ NoDup l' /\ (forall x, In x l -> ~ In x l').
Proof.
  intros A. induction l as [|x l IH]; intros l'; cbn [app].
  - split; [intros H; repeat split; auto; constructor | tauto].
  - rewrite !NoDup_cons_iff, IH, in_app_iff. split.
    + intros (Hx & N1 & N2 & D). repeat split; auto. intros y [<-|Hy]; auto.
    + intros ((Hx & N1) & N2 & D). repeat split; auto.
      * intros [H|H]; [auto | apply (D x); auto; now left].
      * intros y Hy. apply D. now right.
Qed.
Lemma NoDup_app_inv : forall {A} (l l' : list A),
  NoDup (l ++ l') -> NoDup l /\ NoDup l' /\ (forall x, In x l -> ~ In x l').
Proof. intros A l l'. apply NoDup_app_iff. Qed.
Lemma NoDup_app_left : forall {A} (l l' : list A), NoDup (l ++ l') -> NoDup l.
Proof. intros A l l' H. apply (NoDup_app_inv _ _ H). Qed.
Lemma NoDup_app_right : forall {A} (l l' : list A), NoDup (l ++ l') -> NoDup l'.
Proof. intros A l l' H. apply (NoDup_app_inv _ _ H). Qed.
Lemma NoDup_app_disj : forall {A} (l l' : list A), NoDup (l ++ l') -> forall y, In y l -> In y l' -> False.
Proof. intros A l l' H y. apply (NoDup_app_inv _ _ H). Qed.
Lemma NoDup_app_intro : forall {A} (l l' : list A),
  NoDup l -> NoDup l' -> (forall x, In x l -> ~ In x l') -> NoDup (l ++ l').
Proof. intros. apply NoDup_app_iff. auto. Qed.
Lemma NoDup_mid : forall {A} (x : A) l l', NoDup (l ++ x :: l') -> ~ In x l /\ ~ In x l' /\ NoDup (l ++ l').
Proof.
  intros A x l l' H. apply NoDup_remove in H. destruct H as [H1 H2]. rewrite in_app_iff in H2. tauto.
Qed.
Lemma NoDup_insert_middle : forall {A} (l m l' : list A), NoDup (l ++ l') -> NoDup m ->
  (forall y, In y m -> ~ In y (l ++ l')) -> NoDup (l ++ m ++ l').
Proof.
  intros A l m l' H1 H2 H3. destruct (NoDup_app_inv _ _ H1) as (Nl & Nl' & D).
  apply NoDup_app_intro; auto.
  - apply NoDup_app_intro; auto. intros y Hy Hb. apply (H3 y Hy). apply in_or_app. now right.
  - intros y Hy Hi. apply in_app_or in Hi. destruct Hi as [Hi|Hi]; [|now apply (D y)].
    apply (H3 y Hi). apply in_or_app. now left.
Qed.
Lemma NoDup_snoc : forall A (l : list A) x, NoDup l -> ~ In x l -> NoDup (l ++ [x]).
Proof.
  intros A l x ND NI. apply NoDup_app_intro; auto.
  - repeat constructor. intros [].
  - intros y Hy [<-|[]]. contradiction.
Qed.

Lemma NoDup_flat_map : forall {A B} (f : A -> list B) l,
  NoDup l -> (forall x, In x l -> NoDup (f x)) ->
  (forall x y z, In x l -> In y l -> In z (f x) -> In z (f y) -> x = y) ->
  NoDup (flat_map f l).
Proof.
  intros A B f. induction l as [|x l IH]; intros Hl Hf Hd; cbn [flat_map]; [constructor|].
  inversion Hl as [|? ? Hx Hr]; subst. apply NoDup_app_intro.
  - apply Hf. now left.
  - apply IH; auto.
    + intros y Hy. apply Hf. now right.
    + intros y y' z Hy Hy'. apply Hd; now right.
  - intros z Hz Hin. apply in_flat_map in Hin. destruct Hin as (y & Hy & Hzy).
    assert (x = y) by (apply (Hd x y z); auto; [now left | now right]). subst. auto.
Qed.

(* pigeonhole on distinct numbers below n *)
Lemma NoDup_idx_bound : forall (l : list nat) n, NoDup l -> (forall i, In i l -> i < n) -> length l <= n.
Proof.
  intros l n Hn Hb. rewrite <- (seq_length n 0).
  apply NoDup_incl_length; auto. intros i Hi. apply in_seq. specialize (Hb i Hi). lia.
Qed.

Lemma nid_in_In : forall x l, nid_in x l = true <-> In x l.
Proof.
  intros x l. unfold nid_in. rewrite existsb_exists. split.
  - intros (y & Hy & E). apply nid_eqb_eq in E. now subst.
  - intros H. exists x. split; auto. apply nid_eqb_refl.
Qed.
Lemma nid_in_false : forall x l, nid_in x l = false <-> ~ In x l.
Proof. intros. now rewrite <- not_true_iff_false, nid_in_In. Qed.

Lemma In_remove_id : forall x y l, In y (remove_id x l) <-> In y l /\ y <> x.
Proof. intros. unfold remove_id. rewrite filter_In, negb_true_iff, nid_eqb_false. tauto. Qed.
Lemma NoDup_remove_id : forall x l, NoDup l -> NoDup (remove_id x l).
Proof. intros. now apply NoDup_filter. Qed.

(* [subst_id x S], [ins_after x c], [ins_before x c] and [remove_id x] all replace x by a fixed list *)
Lemma subst_id_notin : forall x S l, ~ In x l -> subst_id x S l = l.
Proof.
  induction l as [|y l IH]; cbn; intros H; auto.
  rewrite nid_eqb_neq by (intros ->; apply H; now left). cbn. f_equal. apply IH. tauto.
Qed.
Lemma subst_id_app : forall x S l1 l2, subst_id x S (l1 ++ l2) = subst_id x S l1 ++ subst_id x S l2.
Proof. intros. apply flat_map_app. Qed.
Lemma subst_id_mid : forall x S A B, ~ In x A -> ~ In x B -> subst_id x S (A ++ x :: B) = A ++ S ++ B.
Proof.
  intros x S A B HA HB. rewrite subst_id_app, (subst_id_notin x S A HA). f_equal.
  unfold subst_id at 1. cbn [flat_map]. rewrite nid_eqb_refl. f_equal. now apply subst_id_notin.
Qed.
Lemma in_subst_id : forall x S y l, In y (subst_id x S l) <-> (In y l /\ y <> x) \/ (In x l /\ In y S).
Proof.
  intros x S y l. unfold subst_id. rewrite in_flat_map. split.
  - intros (z & Hz & Hy). destruct (nid_eqb z x) eqn:E.
    + apply nid_eqb_eq in E. subst. auto.
    + destruct Hy as [<-|[]]. left. split; auto. now apply nid_eqb_false.
  - intros [[H1 H2]|[H1 H2]].
    + exists y. split; auto. rewrite nid_eqb_neq by auto. now left.
    + exists x. split; auto. now rewrite nid_eqb_refl.
Qed.

Lemma subst_nil_remove : forall x l, subst_id x [] l = remove_id x l.
Proof.
  induction l as [|y l IH]; [reflexivity|].
  unfold subst_id, remove_id in *. cbn [flat_map filter]. rewrite IH.
  destruct (nid_eqb y x); reflexivity.
Qed.
Lemma ins_after_subst : forall a c l, ins_after a c l = subst_id a [a; c] l.
Proof.
  intros. unfold ins_after, subst_id. apply flat_map_ext_in. intros y _.
  destruct (nid_eqb y a) eqn:E; auto. apply nid_eqb_eq in E. now subst.
Qed.
Lemma ins_before_subst : forall a c l, ins_before a c l = subst_id a [c; a] l.
Proof.
  intros. unfold ins_before, subst_id. apply flat_map_ext_in. intros y _.
  destruct (nid_eqb y a) eqn:E; auto. apply nid_eqb_eq in E. now subst.
Qed.

Lemma remove_id_notin : forall x l, ~ In x l -> remove_id x l = l.
Proof. intros. rewrite <- subst_nil_remove. now apply subst_id_notin. Qed.
Lemma remove_id_mid : forall x A B, ~ In x A -> ~ In x B -> remove_id x (A ++ x :: B) = A ++ B.
Proof. intros. rewrite <- subst_nil_remove. now rewrite subst_id_mid. Qed.
Lemma ins_after_notin : forall a c l, ~ In a l -> ins_after a c l = l.
Proof. intros. rewrite ins_after_subst. now apply subst_id_notin. Qed.
Lemma ins_after_mid : forall a c A B, ~ In a A -> ~ In a B -> ins_after a c (A ++ a :: B) = A ++ a :: c :: B.
Proof. intros. rewrite ins_after_subst. now rewrite subst_id_mid. Qed.
Lemma ins_before_notin : forall a c l, ~ In a l -> ins_before a c l = l.
Proof. intros. rewrite ins_before_subst. now apply subst_id_notin. Qed.
Lemma ins_before_mid : forall a c A B, ~ In a A -> ~ In a B -> ins_before a c (A ++ a :: B) = A ++ c :: a :: B.
Proof. intros. rewrite ins_before_subst. now rewrite subst_id_mid. Qed.
