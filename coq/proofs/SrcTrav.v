(* SrcTrav.v — gen/GenTrav.v (traverse.rs, re-translated on every run: NodeEdge::{next,prev}_traverse, the two arms
   of new_iterator!, Traverse / ReverseTraverse, and the `new` / `next` / `next_back` closures of the six
   new_iterator! invocations) is the model's Traverse.v. *)
From IT.proofs Require Import SrcTac SrcAlloc.
From IT.gen Require Import GenTrav.
Open Scope mon_scope.

Lemma src_next_traverse dbg e a : g_NodeEdge_next_traverse dbg e a = lift (next_traverse e) a.
Proof. destruct a, e; unfold g_NodeEdge_next_traverse, next_traverse; mx. Qed.

Lemma src_prev_traverse dbg e a : g_NodeEdge_prev_traverse dbg e a = lift (prev_traverse e) a.
Proof. destruct a, e; unfold g_NodeEdge_prev_traverse, prev_traverse; mx. Qed.

Open Scope rd_scope.

(* one pull of the single-ended machine (macro arm with `Iter`): (new cursor, yielded item) *)
Definition iter_step (f : node -> option nid) (cur : option nid) : R (option nid * option nid) :=
  match cur with
  | None => rret (None, None)
  | Some c => n <- rrdi c ;; rret (f n, Some c)
  end.

Definition swap_r {A B} (m : R (A * B)) : R (B * A) := r <- m ;; rret (snd r, fst r).

Lemma src_iter_next dbg f s a : g_IterArm_next dbg f s a = lift (iter_step f s) a.
Proof. destruct a, s; unfold g_IterArm_next, iter_step; mx. Qed.

Lemma iter_collect_is_steps f fuel c a :
  iter_collect f (S fuel) (Some c) a =
  (r <- iter_step f (Some c) ;; rest <- iter_collect f fuel (fst r) ;; rret (c :: rest)) a.
Proof. cbn [iter_collect iter_step]. unfold rbind, rret, rrdi, rrd. destruct (nth_error (nodes a) (idx c)); reflexivity. Qed.

Lemma src_de_next dbg f s a : g_DeArm_next dbg f s a = lift (swap_r (de_next f s)) a.
Proof. destruct a, s as [[h|] [t|]]; unfold g_DeArm_next, de_next, swap_r; mx. Qed.

Lemma src_de_next_back dbg f s a : g_DeArm_next_back dbg f s a = lift (swap_r (de_next_back f s)) a.
Proof. destruct a, s as [[h|] [t|]]; unfold g_DeArm_next_back, de_next_back, swap_r; mx. Qed.

(* one pull of Traverse: state (root, next) *)
Definition trav_step (st : nid * option edge) : R ((nid * option edge) * option edge) :=
  match snd st with
  | None => rret ((fst st, None), None)
  | Some e => nn <- (if edge_eqb e (End_ (fst st)) then rret None else next_traverse e) ;;
              rret ((fst st, nn), Some e)
  end.

Definition rtrav_step (st : nid * option edge) : R ((nid * option edge) * option edge) :=
  match snd st with
  | None => rret ((fst st, None), None)
  | Some e => nn <- (if edge_eqb e (Start (fst st)) then rret None else prev_traverse e) ;;
              rret ((fst st, nn), Some e)
  end.

Lemma src_traverse_next dbg st a : g_Traverse_next dbg st a = lift (trav_step st) a.
Proof.
  destruct a, st as [root [e|]]; unfold g_Traverse_next, g_Traverse_next_of_next, trav_step; cbn [fst snd].
  - mx_rw (rewrite ?src_next_traverse).
  - reflexivity.
Qed.

Lemma src_rtraverse_next dbg st a : g_ReverseTraverse_next dbg st a = lift (rtrav_step st) a.
Proof.
  destruct a, st as [root [e|]]; unfold g_ReverseTraverse_next, g_ReverseTraverse_next_of_next, rtrav_step; cbn [fst snd].
  - mx_rw (rewrite ?src_prev_traverse).
  - reflexivity.
Qed.

Lemma traverse_loop_is_steps fuel root e a :
  traverse_loop (S fuel) root (Some e) a =
  (r <- trav_step (root, Some e) ;; rest <- traverse_loop fuel root (snd (fst r)) ;; rret (e :: rest)) a.
Proof.
  cbn [traverse_loop trav_step fst snd]. unfold rbind, rret.
  destruct (if edge_eqb e (End_ root) then _ else _) as [nn| |]; reflexivity.
Qed.

Lemma rtraverse_loop_is_steps fuel root e a :
  rtraverse_loop (S fuel) root (Some e) a =
  (r <- rtrav_step (root, Some e) ;; rest <- rtraverse_loop fuel root (snd (fst r)) ;; rret (e :: rest)) a.
Proof.
  cbn [rtraverse_loop rtrav_step fst snd]. unfold rbind, rret.
  destruct (if edge_eqb e (Start root) then _ else _) as [nn| |]; reflexivity.
Qed.

Lemma src_iter_closures dbg (x : nid) (n : node) a :
  g_Ancestors_new dbg x a = (a, Ok (Some x)) /\ g_Ancestors_nextf dbg n a = (a, Ok (parent n)) /\
  g_Predecessors_new dbg x a = (a, Ok (Some x)) /\ g_Predecessors_nextf dbg n a = (a, Ok (or_else (prev n) (parent n))) /\
  g_ReverseChildren_nextf dbg n a = (a, Ok (prev n)) /\
  g_PrecedingSiblings_nextf dbg n a = (a, Ok (de_fwd DPreceding n)) /\ g_PrecedingSiblings_backf dbg n a = (a, Ok (de_bwd DPreceding n)) /\
  g_FollowingSiblings_nextf dbg n a = (a, Ok (de_fwd DFollowing n)) /\ g_FollowingSiblings_backf dbg n a = (a, Ok (de_bwd DFollowing n)) /\
  g_Children_nextf dbg n a = (a, Ok (de_fwd DChildren n)) /\ g_Children_backf dbg n a = (a, Ok (de_bwd DChildren n)).
Proof. repeat split. Qed.

Lemma src_reverse_children_new dbg x a : g_ReverseChildren_new dbg x a = lift (n <- rrdi x ;; rret (last n)) a.
Proof. destruct a; unfold g_ReverseChildren_new; mx. Qed.

Lemma src_children_new dbg x a : g_Children_new dbg x a = lift (de_new DChildren x) a.
Proof. destruct a; unfold g_Children_new, de_new; mx. Qed.

Lemma src_preceding_loop dbg fuel cur node a :
  g_PrecedingSiblings_new_loop1 dbg fuel cur node a = lift (e <- walk_end prev fuel cur ;; rret (Some e)) a.
Proof.
  revert cur a. induction fuel as [|fuel IH]; intros cur a; destruct a; cbn [g_PrecedingSiblings_new_loop1 walk_end]; [reflexivity|].
  mx_rw (rewrite ?IH).
Qed.

Lemma src_following_loop dbg fuel cur node a :
  g_FollowingSiblings_new_loop1 dbg fuel cur node a = lift (e <- walk_end next fuel cur ;; rret (Some e)) a.
Proof.
  revert cur a. induction fuel as [|fuel IH]; intros cur a; destruct a; cbn [g_FollowingSiblings_new_loop1 walk_end]; [reflexivity|].
  mx_rw (rewrite ?IH).
Qed.

Lemma src_preceding_new dbg x a : g_PrecedingSiblings_new dbg x a = lift (de_new DPreceding x) a.
Proof.
  destruct a; unfold g_PrecedingSiblings_new, de_new, rget_unwrap, ArenaM.get, chain_fuel.
  mx_rw (rewrite ?src_get, ?src_preceding_loop; unfold ArenaM.get).
Qed.

Lemma src_following_new dbg x a : g_FollowingSiblings_new dbg x a = lift (de_new DFollowing x) a.
Proof.
  destruct a; unfold g_FollowingSiblings_new, de_new, rget_unwrap, ArenaM.get, chain_fuel.
  mx_rw (rewrite ?src_get, ?src_following_loop; unfold ArenaM.get).
Qed.
