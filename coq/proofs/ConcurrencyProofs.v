(* every reader observes, under any interleaving, exactly what it observes when running alone *)
From IT Require Import Concurrency.
From IT.proofs Require Import Basics.

Section P.
  Variable St Obs : Type.

  Lemma schedule_independent_gen : forall (a : arena) (steps : list (rstep St Obs)) sched sts i f s,
    nth_error steps i = Some f -> nth_error sts i = Some s ->
    project Obs i (run_sched St Obs a steps sts sched)
    = run_alone St Obs a f s (length (project Obs i (run_sched St Obs a steps sts sched))).
  Proof.
    intros a steps sched. induction sched as [|j rest IH]; intros sts i f s Hf Hs; cbn [run_sched].
    - reflexivity.
    - destruct (nth_error steps j) as [g|] eqn:Eg; [destruct (nth_error sts j) as [t|] eqn:Et|].
      + destruct (g a t) as [t' o] eqn:Egt.
        unfold project at 1 2. cbn [filter fst map snd].
        destruct (Nat.eqb j i) eqn:Eji.
        * apply Nat.eqb_eq in Eji; subst j.
          rewrite Hf in Eg; inversion Eg; subst g. rewrite Hs in Et; inversion Et; subst t.
          cbn [map snd length run_alone]. rewrite Egt. f_equal.
          apply (IH (list_set i t' sts) i f t' Hf).
          now rewrite (nth_list_set _ _ _ _ _ i Hs), Nat.eqb_refl.
        * apply (IH (list_set j t' sts) i f s Hf).
          now rewrite (nth_list_set _ _ _ _ _ i Et), Nat.eqb_sym, Eji.
      + apply IH; auto.
      + apply IH; auto.
  Qed.
End P.
