(* Assembly.v — the global invariant [WF] (the arena represents a forest and the allocation
   invariant holds) is preserved by every valid call, and what every valid call returns and does.
   Release semantics (dbg = false).  Built on the refinement theorems of ReprInsert.v /
   ReprRemove.v and the allocation theorems of AllocProofs.v. *)
From IT Require Import Props.
From IT.proofs Require Import Layer1 ReprBase ReprInsert.
From IT.proofs Require AllocProofs ReprRemove.
Require Import Lia.
Local Open Scope nat_scope.

Lemma Repr_empty : Repr empty_arena empty_forest.
Proof.
  constructor.
  - intros x. split.
    + intros [[p []]|(c & [] & _)].
    + intros (n & H & _). unfold node_at in H. cbn in H. destruct (idx x); discriminate.
  - intros p. split; [exact I | constructor].
  - intros p H. now contradiction H.
  - intros c [].
  - intros p n (m & H & _). unfold node_at in H; cbn in H. destruct (idx p); discriminate.
  - intros x [[p []]|(c & [] & _)].
  - intros i n H. destruct i; discriminate.
Qed.

Lemma WF_init : WF init.
Proof. split; [exists empty_forest; apply Repr_empty | apply AllocProofs.AllocOK_init]. Qed.

Lemma WF_eta : forall w, WF w -> WF (mkWorld (ar w) (issued w) (removed w) (dropped w)).
Proof. intros w H. now rewrite AllocProofs.world_eta. Qed.

Lemma WF_shape : forall w F' a', AllocOK w -> Repr a' F' -> same_shape (ar w) a' ->
  WF (mkWorld a' (issued w) (removed w) (dropped w)).
Proof. intros w F' a' OK R' S. split; [exists F'; exact R' | now apply AllocProofs.AllocOK_same_shape]. Qed.

Lemma FreeOK_lfree_ok : forall a FL, FreeOK a FL -> ReprRemove.lfree_ok a.
Proof.
  intros a FL (_ & HL & _ & HR). unfold ReprRemove.lfree_ok. rewrite HL.
  destruct (last_error FL) as [i|] eqn:E; auto.
  apply last_error_In in E. apply HR in E. destruct E as (n & Hn & _).
  apply nth_error_Some. congruence.
Qed.

Lemma AllocOK_lfree_ok : forall w, AllocOK w -> ReprRemove.lfree_ok (ar w).
Proof. intros w OK. destruct (al_free _ OK) as (FL & FO). eapply FreeOK_lfree_ok; eauto. Qed.

Lemma new_member : forall F x y, memberF (f_new x F) y <-> y = x \/ memberF F y.
Proof.
  intros F x y. unfold memberF. cbn [f_new kidsf tops]. split.
  - intros [H|(c & [<-|Hc] & Hy)]; auto.
    + destruct Hy as [<-|[]]. auto.
    + right. right. eauto.
  - intros [->|[H|(c & Hc & Hy)]]; auto.
    + right. exists [x]. split; now left.
    + right. exists c. split; auto. now right.
Qed.

Lemma new_depth : forall F x y d, depthF F y d -> depthF (f_new x F) y d.
Proof.
  induction 1.
  - eapply depth_top; eauto. cbn. now right.
  - eapply depth_kid; eauto.
Qed.

Lemma anc_owner : forall F y z, ancF F y z -> y = z \/ kidsf F z <> [].
Proof.
  induction 1 as [|y p z Hy Hp IH]; auto. right. destruct IH as [->|IH]; auto.
  intros E. rewrite E in Hy. destruct Hy.
Qed.

Section NewRoot.
Variables (a a' : arena) (F : forest) (x : nid) (d : ndata).
Hypothesis R : Repr a F.
Hypothesis Hx : node_at a' x (fresh_node (gen x) d).
Hypothesis Hg : (0 <= gen x)%Z.
Hypothesis Ho : forall j, j <> idx x -> nth_error (nodes a') j = nth_error (nodes a) j.
Hypothesis Hnl : forall y, live a y -> idx y <> idx x.

Lemma nr_live_x : live a' x.
Proof. exists (fresh_node (gen x) d). repeat split; auto. Qed.

Lemma nr_not_live : ~ live a x.
Proof. intros L. now apply (Hnl x L). Qed.

Lemma nr_node_old : forall y n, live a y -> (node_at a' y n <-> node_at a y n).
Proof. intros y n L. unfold node_at. rewrite Ho by (now apply Hnl). tauto. Qed.

Lemma nr_live : forall y, live a' y <-> y = x \/ live a y.
Proof.
  intros y. split.
  - intros L. destruct (Nat.eq_dec (idx y) (idx x)) as [E|E].
    + left. eapply live_inj; eauto using nr_live_x.
    + right. destruct L as (n & H & S). exists n. split; auto. unfold node_at in *. now rewrite <- Ho.
  - intros [->|L]; [apply nr_live_x|]. pose proof L as (n & H & S). exists n. split; auto.
    now apply nr_node_old.
Qed.

Lemma nr_kids_x : kidsf F x = [].
Proof. exact (kids_not_live a F x R nr_not_live). Qed.

Lemma nr_dseg : forall o L, (forall y, In y L -> live a y) ->
  dseg a o None L None -> dseg a' o None L None.
Proof.
  intros o L HL. apply dseg_transfer. intros y n Hy Hn. exists n. split; auto.
  apply nr_node_old; auto.
Qed.

Lemma nr_repr : Repr a' (f_new x F).
Proof.
  constructor.
  - intros y. rewrite new_member, nr_live, (r_live _ _ R). tauto.
  - intros p. cbn [f_new kidsf]. destruct (r_kids _ _ R p) as [D N]. split; auto.
    apply nr_dseg; auto. intros y Hy. eapply kid_live; eauto.
  - intros p H. cbn [f_new kidsf] in H. apply nr_live. right. now apply (r_owner _ _ R).
  - intros c Hc. cbn [f_new tops] in Hc. destruct Hc as [<-|Hc].
    + split; [discriminate|]. split; [|repeat constructor; auto].
      cbn [dseg]. exists (fresh_node (gen x) d). repeat split; auto.
    + destruct (r_tops _ _ R c Hc) as (N1 & D & N3). split; auto. split; auto.
      apply nr_dseg; auto. intros y Hy. eapply top_live; eauto.
  - intros p n L Hn. cbn [f_new kidsf]. apply nr_live in L. destruct L as [->|L].
    + unfold node_at in *. rewrite Hx in Hn. inversion Hn; subst n. rewrite nr_kids_x. auto.
    + apply (r_ends _ _ R p n L). now apply nr_node_old.
  - intros y My. apply new_member in My. destruct My as [->|My].
    + exists 0. apply depth_top with (c := [x]); cbn; auto.
    + destruct (r_depth _ _ R y My) as [d0 Hd]. exists d0. now apply new_depth.
  - intros i n Hn S. destruct (Nat.eq_dec i (idx x)) as [->|E].
    + unfold node_at in Hx. rewrite Hx in Hn. inversion Hn; subst n. cbn in S. lia.
    + rewrite Ho in Hn by auto. eapply (r_dead _ _ R); eauto.
Qed.
End NewRoot.

Lemma new_full : forall w F v, Repr (ar w) F -> AllocOK w ->
  exists a' x, new_node false v (ar w) = (a', Ok x) /\ Repr a' (f_new x F) /\ ~ live (ar w) x /\
    ~ In x (issued w) /\ live a' x /\
    AllocOK (mkWorld a' (issued w ++ [x]) (removed w) (dropped w)).
Proof.
  intros w F v R OK. destruct (al_free _ OK) as (FL & FO).
  destruct (AllocProofs.new_node_spec w v FL OK FO) as (a' & x & E & NI & LX & HX & HO & _ & OK').
  pose proof (fun y => AllocProofs.new_node_slot w v a' x y OK E) as Hnl.
  assert (NL : ~ live (ar w) x) by (intros L; exact (Hnl x L eq_refl)).
  assert (G : (0 <= gen x)%Z) by (destruct LX as (n & _ & _ & G); exact G).
  exists a', x. split; [exact E|]. split; [|auto].
  apply (nr_repr (ar w) a' F x (Data v)); auto.
Qed.

Theorem new_node_refines : forall w F v, Repr (ar w) F -> AllocOK w ->
  exists a' x, new_node false v (ar w) = (a', Ok x) /\ Repr a' (f_new x F) /\ ~ live (ar w) x.
Proof.
  intros w F v R OK. destruct (new_full w F v R OK) as (a' & x & E & R' & NL & _).
  exists a', x. auto.
Qed.

(* the fresh node x, a lone root, goes into the gap after the last child of p *)
Lemma append_gap : forall a a1 F p x, Repr a F -> ~ live a x -> live a1 p -> p <> x ->
  move_ok a1 (f_new x F) None [x] (Some p) (kidsf F p) [] (f_append_value p x F).
Proof.
  intros a a1 F p x R NL Lp1 NE.
  assert (NA : ~ ancF (f_new x F) p x).
  { intros H. apply anc_owner in H. destruct H as [->|H]; [now apply NE|].
    cbn [f_new kidsf] in H. apply NL. now apply (r_owner _ _ R). }
  repeat split.
  - cbn [f_new kidsf]. now rewrite app_nil_r.
  - exact Lp1.
  - intros s [<-|[]]. exact NA.
  - intros s [<-|[]]. rewrite app_nil_r. intros I. apply NL. eapply kid_live; eauto.
  - intros q. cbn [f_append_value kidsf onid_eqb f_new]. rewrite (nid_eqb_sym p q).
    destruct (nid_eqb q p) eqn:E; auto. apply nid_eqb_eq in E. now subst.
  - intros H. right. cbn [f_append_value tops] in H. repeat split; try discriminate. now right.
    intros _ ->. apply NL. eapply top_live; eauto. now left.
  - intros [[E _]|([<-|H] & N & _)]; [discriminate | now contradiction N | exact H].
Qed.

(* append_value links the node new_node returned behind the last child of p *)
Lemma append_exec : forall a a1 F p v x, Repr a F -> Repr a1 (f_new x F) -> ~ live a x -> live a p -> live a1 p ->
  new_node false v a = (a1, Ok x) ->
  append_value false p v a = (amap (iluF a1 x p) a1, Ok x) /\ Repr (amap (iluF a1 x p) a1) (f_append_value p x F).
Proof.
  intros a a1 F p v x R R1 NL Lp Lp1 E1.
  assert (NE : p <> x) by (intros ->; contradiction).
  assert (El : last (nd a1 p) = last_error (kidsf F p)).
  { destruct (ends_of a1 _ R1 p Lp1) as [_ H]. exact H. }
  pose proof (append_gap a a1 F p x R NL Lp1 NE) as MV.
  destruct (move_top_refines a1 (f_new x F) x [] (Some p) (kidsf F p) [] _ R1 (or_introl eq_refl) MV)
    as (ET & R' & _). cbv zeta in ET, R'. cbn [hd_error List.last] in ET, R'. rewrite <- El in ET, R'.
  fold (iluF a1 x p) in ET, R'. split; [|exact R'].
  unfold append_value. rewrite bind_rdi by (now apply live_inr).
  unfold node_is_removed, st_is_removed. rewrite (live_ltb _ _ Lp). cbv iota.
  rewrite bind_ret, (bind_ok _ _ _ _ _ _ _ E1).
  assert (IL : insert_last_unchecked false x p a1 = (amap (iluF a1 x p) a1, Ok tt)).
  { unfold insert_last_unchecked. rewrite bind_rdi by (now apply live_inr).
    now rewrite (bind_ok _ _ _ _ _ _ _ ET). }
  now rewrite (bind_ok _ _ _ _ _ _ _ IL).
Qed.

Lemma append_full : forall w F p v, Repr (ar w) F -> AllocOK w -> live (ar w) p ->
  exists a1 a' x, new_node false v (ar w) = (a1, Ok x) /\ append_value false p v (ar w) = (a', Ok x) /\
    Repr a1 (f_new x F) /\ Repr a' (f_append_value p x F) /\ ~ live (ar w) x /\ same_shape a1 a' /\
    live a1 p /\ live a1 x /\ p <> x /\ ~ ancF (f_new x F) p x /\
    AllocOK (mkWorld a1 (issued w ++ [x]) (removed w) (dropped w)) /\
    AllocOK (mkWorld a' (issued w ++ [x]) (removed w) (dropped w)).
Proof.
  intros w F p v R OK Lp.
  destruct (new_full w F v R OK) as (a1 & x & E1 & R1 & NL & NI & LX & OK1).
  assert (Lp1 : live a1 p).
  { apply (r_live _ _ R1). apply new_member. right. now apply (r_live _ _ R). }
  assert (NE : p <> x) by (intros ->; contradiction).
  assert (NA : ~ ancF (f_new x F) p x) by (now destruct (append_gap _ a1 F p x R NL Lp1 NE) as ((_ & _ & NA) & _); apply NA; left).
  destruct (append_exec _ a1 F p v x R R1 NL Lp Lp1 E1) as [Eapp R'].
  set (a' := amap (iluF a1 x p) a1) in *.
  assert (S' : same_shape a1 a') by (apply same_shape_amap, links_only_iluF).
  assert (OK' : AllocOK (mkWorld a' (issued w ++ [x]) (removed w) (dropped w))).
  { eapply AllocProofs.append_value_alloc; eauto. }
  exists a1, a', x. tauto.
Qed.

Theorem append_value_refines : forall w F p v, Repr (ar w) F -> AllocOK w -> live (ar w) p ->
  exists a' x, append_value false p v (ar w) = (a', Ok x) /\ Repr a' (f_append_value p x F) /\ ~ live (ar w) x.
Proof.
  intros w F p v R OK Lp.
  destruct (append_full w F p v R OK Lp) as (a1 & a' & x & _ & E & _ & R' & NL & _).
  exists a', x. auto.
Qed.

Theorem append_value_removed : forall dbg a p v, slot_removed a p ->
  append_value dbg p v a = (a, Panic P_PRECOND).
Proof.
  intros dbg a p v SR. unfold append_value. rewrite bind_rdi by (now apply slot_removed_inr).
  unfold node_is_removed, st_is_removed. rewrite (removed_ltb _ _ SR). reflexivity.
Qed.

Lemma Repr_same_links : forall a a' F, Repr a F -> length (nodes a') = length (nodes a) ->
  (forall i n, nth_error (nodes a) i = Some n ->
     exists n', nth_error (nodes a') i = Some n' /\ stamp n' = stamp n /\
       parent n' = parent n /\ prev n' = prev n /\ next n' = next n /\ first n' = first n /\ last n' = last n) ->
  Repr a' F.
Proof.
  intros a a' F R LEN H.
  assert (INV : forall i n', nth_error (nodes a') i = Some n' ->
     exists n, nth_error (nodes a) i = Some n /\ stamp n' = stamp n /\
       parent n' = parent n /\ prev n' = prev n /\ next n' = next n /\ first n' = first n /\ last n' = last n).
  { intros i n' Hn'. destruct (nth_error (nodes a) i) as [n|] eqn:E.
    - destruct (H _ _ E) as (m & Hm & P). rewrite Hm in Hn'. inversion Hn'; subst m. eauto.
    - apply nth_error_None in E. assert (nth_error (nodes a') i <> None) by congruence.
      apply nth_error_Some in H0. lia. }
  assert (LV : forall y, live a' y <-> live a y).
  { intros y. split.
    - intros (n' & Hn' & S). destruct (INV _ _ Hn') as (n & Hn & S' & _). exists n. split; auto.
      now rewrite <- S'.
    - intros (n & Hn & S). destruct (H _ _ Hn) as (n' & Hn' & S' & _). exists n'. split; auto.
      now rewrite S'. }
  assert (TR : forall o L, dseg a o None L None -> dseg a' o None L None).
  { intros o L. apply dseg_transfer. intros y n _ Hn.
    destruct (H _ _ Hn) as (n' & Hn' & _ & P1 & P2 & P3 & _). exists n'. auto. }
  constructor.
  - intros y. rewrite LV. apply (r_live _ _ R).
  - intros p. destruct (r_kids _ _ R p). auto.
  - intros p Hp. apply LV. now apply (r_owner _ _ R).
  - intros c Hc. destruct (r_tops _ _ R c Hc) as (N1 & D & N3). auto.
  - intros p n' L Hn'. apply LV in L. destruct (INV _ _ Hn') as (n & Hn & _ & _ & _ & _ & F1 & F2).
    rewrite F1, F2. apply (r_ends _ _ R p n L Hn).
  - apply (r_depth _ _ R).
  - intros i n' Hn' S. destruct (INV _ _ Hn') as (n & Hn & S' & P1 & P2 & P3 & P4 & P5).
    rewrite P1, P2, P3, P4, P5. apply (r_dead _ _ R i n Hn). now rewrite <- S'.
Qed.

Lemma write_full : forall w F x v, Repr (ar w) F -> AllocOK w -> live (ar w) x ->
  exists a' old, write_payload x v (ar w) = (a', Ok old) /\ Repr a' F /\
    AllocOK (mkWorld a' (issued w) (removed w) (dropped w ++ [old])).
Proof.
  intros w F x v R OK L. destruct (al_free _ OK) as (FL & FO).
  destruct (AllocProofs.write_payload_spec w x v FL OK FO L)
    as (a' & old & n & E & Hn & _ & Hn' & HO & LEN & _ & _ & _ & OK').
  exists a', old. split; auto. split; auto.
  apply (Repr_same_links (ar w)); auto.
  intros i m Hm. destruct (Nat.eq_dec i (idx x)) as [->|NE].
  - unfold node_at in *. rewrite Hn in Hm. inversion Hm; subst m.
    exists (set_data (Data v) n). repeat split; auto.
  - exists m. rewrite HO by auto. repeat split; auto.
Qed.

Theorem write_refines : forall w F x v, Repr (ar w) F -> AllocOK w -> live (ar w) x ->
  exists a' old, write_payload x v (ar w) = (a', Ok old) /\ Repr a' F.
Proof.
  intros w F x v R OK L. destruct (write_full w F x v R OK L) as (a' & old & E & R' & _). eauto.
Qed.

(* remove = relinking, then free_node *)
Lemma remove_run : forall w F x, Repr (ar w) F -> AllocOK w -> live (ar w) x ->
  exists a1 a' v FL1, same_shape (ar w) a1 /\
    AllocOK (mkWorld a1 (issued w) (removed w) (dropped w)) /\ FreeOK a1 FL1 /\ live a1 x /\
    free_node false x a1 = (a', Ok (Some v)) /\ remove false x (ar w) = (a', Ok (Some v)) /\
    Repr a' (f_remove x F) /\
    AllocOK (mkWorld a' (issued w) (removed w ++ [x]) (dropped w ++ [v])).
Proof.
  intros w F x R OK L.
  destruct (ReprRemove.remove_refines (ar w) F x R L (AllocOK_lfree_ok w OK))
    as (a1 & a' & old & SS & Hfree & Hrem & R').
  assert (OK1 : AllocOK (mkWorld a1 (issued w) (removed w) (dropped w)))
    by (now apply AllocProofs.AllocOK_same_shape).
  destruct (al_free _ OK1) as (FL1 & FO1).
  assert (L1 : live a1 x) by (now apply (live_same_shape (ar w) a1 x SS)).
  destruct (AllocProofs.free_node_spec _ x FL1 OK1 FO1 L1) as (a2 & v & E2 & _ & _ & _ & _ & _ & _ & _ & OK').
  cbn [ar issued removed dropped] in E2, OK'. rewrite Hfree in E2. injection E2 as <- ->.
  exists a1, a', v, FL1. auto 10.
Qed.

(* remove_subtree = relinking, then free_all of live nodes in distinct slots *)
Lemma remove_subtree_run : forall w F x, Repr (ar w) F -> AllocOK w -> live (ar w) x ->
  let D := preorderF (length (nodes (ar w))) F x in
  exists a1 a' olds FL1, same_shape (ar w) a1 /\
    AllocOK (mkWorld a1 (issued w) (removed w) (dropped w)) /\ FreeOK a1 FL1 /\
    NoDup (map idx D) /\ (forall y, In y D -> live a1 y) /\
    free_all false D a1 = (a', Ok olds) /\ remove_subtree false x (ar w) = (a', Ok (D, olds)) /\
    Repr a' (f_remove_subtree x D F) /\
    AllocOK (mkWorld a' (issued w) (removed w ++ D) (dropped w ++ olds)).
Proof.
  intros w F x R OK L D.
  destruct (ReprRemove.remove_subtree_refines (ar w) F x R L (AllocOK_lfree_ok w OK))
    as (a1 & a' & olds & SS & ND & LD & Hfa & Hrs & R'). fold D in ND, LD, Hfa, Hrs, R'.
  assert (OK1 : AllocOK (mkWorld a1 (issued w) (removed w) (dropped w)))
    by (now apply AllocProofs.AllocOK_same_shape).
  destruct (al_free _ OK1) as (FL1 & FO1).
  destruct (AllocProofs.free_all_spec D _ FL1 OK1 FO1 LD ND) as (a2 & olds2 & E2 & _ & _ & OK' & _).
  cbn [ar issued removed dropped] in E2, OK'. rewrite Hfa in E2. injection E2 as <- <-.
  exists a1, a', olds, FL1. auto 10.
Qed.

Lemma remove_full : forall w F x, Repr (ar w) F -> AllocOK w -> live (ar w) x ->
  exists a' old, remove false x (ar w) = (a', Ok old) /\ Repr a' (f_remove x F) /\
    AllocOK (mkWorld a' (issued w) (removed w ++ [x]) (dropped w ++ olist old)).
Proof.
  intros w F x R OK L.
  destruct (remove_run w F x R OK L) as (a1 & a' & v & _ & _ & _ & _ & _ & _ & E & R' & OK').
  exists a', (Some v). auto.
Qed.

Lemma remove_subtree_full : forall w F x, Repr (ar w) F -> AllocOK w -> live (ar w) x ->
  let D := preorderF (length (nodes (ar w))) F x in
  exists a' olds, remove_subtree false x (ar w) = (a', Ok (D, olds)) /\
    Repr a' (f_remove_subtree x D F) /\
    AllocOK (mkWorld a' (issued w) (removed w ++ D) (dropped w ++ olds)).
Proof.
  intros w F x R OK L D.
  destruct (remove_subtree_run w F x R OK L) as (a1 & a' & olds & _ & _ & _ & _ & _ & _ & _ & E & R' & OK').
  exists a', olds. auto.
Qed.

Theorem step_WF : forall w o, WF w -> valid_op (ar w) o -> WF (fst (step false w o)).
Proof.
  intros w o [[F R] OK] V.
  destruct o as [v|p v|k chk x c|x|x|x|x v| |n]; cbn [valid_op] in V; cbn [step].
  - destruct (new_full w F v R OK) as (a' & x & E & R' & _ & _ & _ & OK'). rewrite E. cbn [fst].
    split; [exists (f_new x F); exact R' | exact OK'].
  - destruct V as [L|SR].
    + destruct (append_full w F p v R OK L) as (a1 & a' & x & _ & E & _ & R' & _ & _ & _ & _ & _ & _ & _ & OK').
      rewrite E. cbn [fst]. split; [exists (f_append_value p x F); exact R' | exact OK'].
    + rewrite (append_value_removed false (ar w) p v SR). cbn [fail_out fst]. apply WF_eta. split; eauto.
  - destruct V as [Ux Uc].
    destruct (impossible_dec (ar w) F k x c R Ux Uc) as [I|NI]; destruct chk.
    + destruct (checked_insert_refines (ar w) F k x c R Ux Uc) as [H _].
      destruct (H I) as (e & E & _). rewrite E. cbn [fst]. apply WF_eta. split; eauto.
    + destruct (unchecked_insert_refines (ar w) F k x c R Ux Uc) as [H _].
      rewrite (H I). cbn [fail_out fst]. apply WF_eta. split; eauto.
    + destruct (checked_insert_refines (ar w) F k x c R Ux Uc) as [_ H].
      destruct (H NI) as (a' & E & R' & S'). rewrite E. cbn [fst]. eapply WF_shape; eauto.
    + destruct (unchecked_insert_refines (ar w) F k x c R Ux Uc) as [_ H].
      destruct (H NI) as (a' & E & R' & S' & _). rewrite E. cbn [fst]. eapply WF_shape; eauto.
  - destruct (detach_refines (ar w) F x R V) as (a' & E & R' & S'). rewrite E. cbn [fst].
    eapply WF_shape; eauto.
  - destruct (remove_full w F x R OK V) as (a' & old & E & R' & OK'). rewrite E. cbn [fst].
    split; [exists (f_remove x F); exact R' | exact OK'].
  - destruct (remove_subtree_full w F x R OK V) as (a' & olds & E & R' & OK'). rewrite E. cbn [fst].
    split; [eexists; exact R' | exact OK'].
  - destruct (write_full w F x v R OK V) as (a' & old & E & R' & OK'). rewrite E. cbn [fst].
    split; [exists F; exact R' | exact OK'].
  - cbn. split; [exists empty_forest; apply Repr_empty | apply AllocProofs.AllocOK_empty].
  - cbn [fst]. split; eauto.
Qed.

Theorem run_WF : forall ops w, WF w -> valid_hist false w ops -> WF (run false ops w).
Proof.
  induction ops as [|o r IH]; intros w H V; [exact H|].
  destruct V as [V1 V2]. change (run false (o :: r) w) with (run false r (fst (step false w o))).
  apply IH; auto. now apply step_WF.
Qed.

Corollary reachable_WF : forall ops, valid_hist false init ops -> WF (run false ops init).
Proof. intros. apply run_WF; auto. apply WF_init. Qed.

Theorem step_outcome : forall w o F, Repr (ar w) F -> AllocOK w -> valid_op (ar w) o ->
  let w' := fst (step false w o) in let out := snd (step false w o) in
  match o with
  | ONew v => exists x, out = OutId x /\ Repr (ar w') (f_new x F) /\ issued w' = issued w ++ [x]
  | OAppendValue p v =>
      (slot_removed (ar w) p -> out = OutPanic P_PRECOND /\ ar w' = ar w) /\
      (live (ar w) p -> exists x, out = OutId x /\ Repr (ar w') (f_append_value p x F) /\ issued w' = issued w ++ [x])
  | OInsert k true x c =>
      (impossible (ar w) F k x c -> exists e, out = OutErr e /\ reason_applies (ar w) F k x c e /\ ar w' = ar w) /\
      (~ impossible (ar w) F k x c -> out = OutUnit /\ Repr (ar w') (f_insert k x c F) /\ same_shape (ar w) (ar w'))
  | OInsert k false x c =>
      (impossible (ar w) F k x c -> out = OutPanic P_PRECOND /\ ar w' = ar w) /\
      (~ impossible (ar w) F k x c -> out = OutUnit /\ Repr (ar w') (f_insert k x c F) /\ same_shape (ar w) (ar w') /\
           ar w' = ar (fst (step false w (OInsert k true x c))))
  | ODetach x => out = OutUnit /\ Repr (ar w') (f_detach x F) /\ same_shape (ar w) (ar w')
  | ORemove x => out = OutUnit /\ Repr (ar w') (f_remove x F) /\ removed w' = removed w ++ [x]
  | ORemoveSubtree x =>
      let D := preorderF (length (nodes (ar w))) F x in
      out = OutUnit /\ Repr (ar w') (f_remove_subtree x D F) /\ removed w' = removed w ++ D
  | OWrite x v => out = OutUnit /\ Repr (ar w') F
  | OClear => out = OutUnit /\ ar w' = empty_arena
  | OReserve _ => out = OutUnit /\ w' = w
  end.
Proof.
  intros w o F R OK V. cbv zeta.
  destruct o as [v|p v|k [|] x c|x|x|x|x v| |n]; cbn [valid_op] in V; cbn [step].
  - destruct (new_full w F v R OK) as (a' & x & E & R' & _). rewrite E. cbn [fst snd ar issued].
    exists x. auto.
  - split.
    + intros SR. rewrite (append_value_removed false (ar w) p v SR). cbn [fail_out fst snd ar]. auto.
    + intros L. destruct (append_full w F p v R OK L) as (a1 & a' & x & _ & E & _ & R' & _).
      rewrite E. cbn [fst snd ar issued]. exists x. auto.
  - destruct V as [Ux Uc]. destruct (checked_insert_refines (ar w) F k x c R Ux Uc) as [H1 H2]. split.
    + intros I. destruct (H1 I) as (e & E & RA). rewrite E. cbn [fst snd ar]. exists e. auto.
    + intros NI. destruct (H2 NI) as (a' & E & R' & S'). rewrite E. cbn [fst snd ar]. auto.
  - destruct V as [Ux Uc]. destruct (unchecked_insert_refines (ar w) F k x c R Ux Uc) as [H1 H2]. split.
    + intros I. rewrite (H1 I). cbn [fail_out fst snd ar]. auto.
    + intros NI. destruct (H2 NI) as (a' & E & R' & S' & Ec). rewrite E, Ec. cbn [fst snd ar]. auto.
  - destruct (detach_refines (ar w) F x R V) as (a' & E & R' & S'). rewrite E. cbn [fst snd ar]. auto.
  - destruct (remove_full w F x R OK V) as (a' & old & E & R' & _). rewrite E. cbn [fst snd ar removed]. auto.
  - destruct (remove_subtree_full w F x R OK V) as (a' & olds & E & R' & _). rewrite E.
    cbn [fst snd ar removed]. auto.
  - destruct (write_full w F x v R OK V) as (a' & old & E & R' & _). rewrite E. cbn [fst snd ar]. auto.
  - cbn. auto.
  - cbn. auto.
Qed.

(* no valid call diverges or hits an internal panic; the only panics are the documented refusals *)
Corollary step_total : forall w o, WF w -> valid_op (ar w) o ->
  snd (step false w o) <> OutDiverge /\
  (forall c, snd (step false w o) = OutPanic c ->
     c = P_PRECOND /\ ar (fst (step false w o)) = ar w /\
     match o with OInsert _ false _ _ | OAppendValue _ _ => True | _ => False end).
Proof.
  intros w o [[F R] OK] V. pose proof (step_outcome w o F R OK V) as H. cbv zeta in H.
  destruct o as [v|p v|k chk x c|x|x|x|x v| |n]; cbn [valid_op] in V.
  (* from detach on, every operation returns unit *)
  4-9: (destruct H as (-> & _); split; [discriminate | intros c0 E; discriminate]).
  - destruct H as (x & -> & _). split; [discriminate | intros c0 E; discriminate].
  - destruct H as [H1 H2]. destruct V as [L|SR].
    + destruct (H2 L) as (x & -> & _). split; [discriminate | intros c0 E; discriminate].
    + destruct (H1 SR) as [-> E]. split; [discriminate|]. intros c0 Ec. inversion Ec. auto.
  - destruct V as [Ux Uc].
    destruct (impossible_dec (ar w) F k x c R Ux Uc) as [I|NI]; destruct chk; destruct H as [H1 H2].
    + destruct (H1 I) as (e & -> & _). split; [discriminate | intros c0 E; discriminate].
    + destruct (H1 I) as [-> E]. split; [discriminate|]. intros c0 Ec. inversion Ec. auto.
    + destruct (H2 NI) as (-> & _). split; [discriminate | intros c0 E; discriminate].
    + destruct (H2 NI) as (-> & _). split; [discriminate | intros c0 E; discriminate].
Qed.

Lemma append_feq : forall a F p x, Repr a F -> ~ live a x ->
  feq (f_insert KAppend p x (f_new x F)) (f_append_value p x F).
Proof.
  intros a F p x R NL.
  assert (NK : forall q, remove_id x (kidsf F q) = kidsf F q).
  { intros q. apply remove_id_notin. intros H. apply NL. eapply kid_live; eauto. }
  assert (NT : forall c, In c (tops F) -> remove_id x c = c).
  { intros c Hc. apply remove_id_notin. intros H. apply NL. eapply top_live; eauto. }
  split.
  - intros q. cbn [f_insert f_detach f_new f_append_value kidsf]. now rewrite NK.
  - intros c.
    change (In c (filter nonempty (map (remove_id x) (tops (f_new x F)))) <-> In c (tops F)).
    rewrite tops_rest. cbn [f_new tops]. split.
    + intros (ch0 & [<-|H0] & -> & NE).
      * exfalso. apply NE. unfold remove_id. cbn. now rewrite nid_eqb_refl.
      * now rewrite NT.
    + intros H. exists c. split; [now right|]. rewrite NT by auto. split; auto.
      now destruct (r_tops _ _ R c H).
Qed.

Theorem append_value_eq : forall w F p v, Repr (ar w) F -> AllocOK w -> live (ar w) p ->
  exists x, snd (step false w (OAppendValue p v)) = OutId x /\ snd (step false w (ONew v)) = OutId x /\
    ar (fst (step false w (OAppendValue p v)))
    = ar (fst (step false (fst (step false w (ONew v))) (OInsert KAppend false p x))).
Proof.
  intros w F p v R OK Lp.
  destruct (append_full w F p v R OK Lp)
    as (a1 & a' & x & E1 & E & R1 & R' & NL & S' & Lp1 & Lx1 & NE & NA & _).
  exists x. cbn [step]. rewrite E, E1. cbn [fst snd ar]. split; [reflexivity|]. split; [reflexivity|].
  destruct (unchecked_insert_refines a1 (f_new x F) KAppend p x R1 (or_introl Lp1) (or_introl Lx1)) as [_ H].
  destruct H as (a'' & E2 & R2 & S2 & _).
  { intros [I|[I|[I|I]]]; auto.
    - eapply live_not_removed; [exact Lp1 | exact I].
    - eapply live_not_removed; [exact Lx1 | exact I]. }
  rewrite E2. cbn [fst ar]. symmetry.
  apply (Repr_unique a' a'' (f_append_value p x F)); auto.
  - eapply Repr_ext; [|exact R2]. eapply append_feq; eauto.
  - eapply same_shape_trans; [apply same_shape_sym; exact S' | exact S2].
Qed.

Print Assumptions step_WF.
Print Assumptions run_WF.
Print Assumptions step_outcome.
Print Assumptions step_total.
Print Assumptions append_value_eq.
