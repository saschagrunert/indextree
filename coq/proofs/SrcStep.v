(* SrcStep.v — the whole step function of the model, instantiated with the REGENERATED operations, is the
   model's step: for every operation except the payload write (Node::get_mut returns a reference and is not
   translated) the arena and the outcome that World.step computes are those of the translated Rust function. *)
From IT.proofs Require Import SrcTac SrcStamp SrcRel SrcAlloc SrcOps.
From IT.gen Require Import GenStamp GenRel GenAlloc GenOps.
From IT Require Import World.
Open Scope mon_scope.

Definition g_checked (dbg : bool) (k : inskind) (a b : nid) : M nres :=
  match k with
  | KAppend => g_NodeId_checked_append dbg a b
  | KPrepend => g_NodeId_checked_prepend dbg a b
  | KAfter => g_NodeId_checked_insert_after dbg a b
  | KBefore => g_NodeId_checked_insert_before dbg a b
  end.

Definition g_unchecked (dbg : bool) (k : inskind) (a b : nid) : M unit :=
  match k with
  | KAppend => g_NodeId_append dbg a b
  | KPrepend => g_NodeId_prepend dbg a b
  | KAfter => g_NodeId_insert_after dbg a b
  | KBefore => g_NodeId_insert_before dbg a b
  end.

(* one API call, through the regenerated functions only *)
Definition g_op (dbg : bool) (o : op) : M outcome :=
  match o with
  | ONew v => x <- g_Arena_new_node dbg v ;; ret (OutId x)
  | OAppendValue p v => x <- g_NodeId_append_value dbg p v ;; ret (OutId x)
  | OInsert k true a b => r <- g_checked dbg k a b ;; ret (match r with NOk => OutUnit | NErr e => OutErr e end)
  | OInsert k false a b => g_unchecked dbg k a b ;;; ret OutUnit
  | ODetach x => g_NodeId_detach dbg x ;;; ret OutUnit
  | ORemove x => g_NodeId_remove dbg x ;;; ret OutUnit
  | ORemoveSubtree x => g_NodeId_remove_subtree dbg x ;;; ret OutUnit
  | OClear => g_Arena_clear dbg ;;; ret OutUnit
  | OReserve _ => ret OutUnit
  | OWrite x v => write_payload x v ;;; ret OutUnit
  end.

Definition as_outcome (r : res outcome) : outcome :=
  match r with Ok o => o | Panic c => OutPanic c | Diverge => OutDiverge end.

Lemma src_checked dbg k a b ar0 : g_checked dbg k a b ar0 = checked_insert dbg k a b ar0.
Proof.
  destruct k; cbn [g_checked checked_insert].
  - apply src_checked_append.
  - apply src_checked_prepend.
  - apply src_checked_insert_after.
  - apply src_checked_insert_before.
Qed.

Lemma src_unchecked dbg k a b ar0 : g_unchecked dbg k a b ar0 = unchecked_insert dbg k a b ar0.
Proof.
  destruct k; cbn [g_unchecked unchecked_insert].
  - apply src_append.
  - apply src_prepend.
  - apply src_insert_after.
  - apply src_insert_before.
Qed.

Lemma src_step dbg w o :
  let '(a', r) := g_op dbg o (ar w) in
  ar (fst (step dbg w o)) = a' /\ snd (step dbg w o) = as_outcome r.
Proof.
  destruct o as [v|p v|k [|] a b|x|x|x|x v| |n]; cbn [g_op step]; unfold bind, ret.
  - rewrite src_new_node. destruct (new_node dbg v (ar w)) as [a' [y|c|]]; cbn; auto.
  - rewrite src_append_value. destruct (append_value dbg p v (ar w)) as [a' [y|c|]]; cbn; auto.
  - rewrite src_checked. destruct (checked_insert dbg k a b (ar w)) as [a' [[|e]|c|]]; cbn; auto.
  - rewrite src_unchecked. destruct (unchecked_insert dbg k a b (ar w)) as [a' [[]|c|]]; cbn; auto.
  - rewrite src_detach. destruct (detach dbg x (ar w)) as [a' [[]|c|]]; cbn; auto.
  - rewrite src_remove. unfold then_ret. destruct (remove dbg x (ar w)) as [a' [old|c|]]; cbn; auto.
  - rewrite src_remove_subtree. unfold then_ret. destruct (remove_subtree dbg x (ar w)) as [a' [[ids olds]|c|]]; cbn; auto.
  - destruct (write_payload x v (ar w)) as [a' [old|c|]]; cbn; auto.
  - rewrite src_clear. unfold then_ret. destruct (clear (ar w)) as [a' [olds|c|]]; cbn; auto.
  - cbn. auto.
Qed.

Definition g_run (dbg : bool) (ops : list op) (a : arena) : arena :=
  fold_left (fun a o => fst (g_op dbg o a)) ops a.

Lemma g_run_is_run dbg ops : forall w, g_run dbg ops (ar w) = ar (run dbg ops w).
Proof.
  induction ops as [|o ops IH]; intros w; [reflexivity|].
  cbn [g_run fold_left run]. fold (g_run dbg ops). fold (run dbg ops).
  pose proof (src_step dbg w o) as H. destruct (g_op dbg o (ar w)) as [a' r]. destruct H as [H _].
  cbn [fst]. rewrite <- H. apply IH.
Qed.
