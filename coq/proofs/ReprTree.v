(* ReprTree.v — in an arena that represents a forest ([Repr a F]) every live node is the root of
   a finite rose tree laid out in the arena; its pre-order is the abstract pre-order [preorderF],
   which is therefore what [descendants] returns, and it lists exactly the nodes below x. *)
From IT Require Import Forest.
From IT.proofs Require Import TraverseProofs ReprBase.
From Coq Require Import Lia.
Local Open Scope nat_scope.

(* the rose tree unfolded from the abstract forest *)
Fixpoint treeF (fuel : nat) (F : forest) (x : nid) : rose :=
  match fuel with O => T x [] | S f => T x (map (treeF f F) (kidsf F x)) end.

Lemma dseg_chain_from : forall a p xs pv, dseg a (Some p) pv xs None -> chain_from a p pv xs.
Proof.
  intros a p. induction xs as [|x r IH]; intros pv H; cbn [chain_from]; auto.
  cbn [dseg] in H. destruct H as (n & Hn & Hp & Hv & Hx & Hr).
  exists n. split; [auto|]. split; [auto|]. split; [auto|]. split; [|auto].
  rewrite Hx. destruct r; reflexivity.
Qed.

Section WithRepr.
Variables (a : arena) (F : forest).
Hypothesis HR : Repr a F.

Lemma depthF_live : forall x d, depthF F x d -> live a x.
Proof. intros x d H. apply (r_live a F HR). destruct H; [right | left]; eauto. Qed.

Lemma anc_linear : forall y k1, ancF F y k1 -> forall k2, ancF F y k2 -> ancF F k1 k2 \/ ancF F k2 k1.
Proof.
  induction 1 as [x | y p k1 Hp Ha IH]; intros k2 H2; auto.
  inversion H2 as [|? q ? Hq Hb]; subst.
  - right. econstructor; eauto.
  - rewrite <- (kid_unique a F HR _ _ _ Hp Hq) in Hb. auto.
Qed.

Lemma sib_anc_eq : forall p k1 k2, In k1 (kidsf F p) -> In k2 (kidsf F p) -> ancF F k1 k2 -> k1 = k2.
Proof.
  intros p k1 k2 H1 H2 H. destruct (anc_step_inv a F HR _ _ _ H1 H) as [|H']; auto.
  destruct (kid_not_anc a F HR _ _ H2 H').
Qed.

Lemma anc_antisym : forall x y, live a y -> ancF F x y -> ancF F y x -> x = y.
Proof. intros x y _. apply (ReprBase.anc_antisym a F HR). Qed.

Lemma preorderF_unfold : forall f x, preorderF (S f) F x = x :: flat_map (preorderF f F) (kidsf F x).
Proof. reflexivity. Qed.

Lemma treeF_unfold : forall f x, treeF (S f) F x = T x (map (treeF f F) (kidsf F x)).
Proof. reflexivity. Qed.

Lemma root_treeF : forall f x, root (treeF f F x) = x.
Proof. intros [|f] x; reflexivity. Qed.

Lemma roots_treeF : forall f l, map root (map (treeF f F) l) = l.
Proof.
  intros f l. rewrite map_map. rewrite <- (map_id l) at 2. apply map_ext. intros; apply root_treeF.
Qed.

Lemma ids_treeF : forall f x, ids (treeF f F x) = preorderF f F x.
Proof.
  induction f as [|f IH]; intros x; [reflexivity|].
  rewrite treeF_unfold, preorderF_unfold, ids_unfold. f_equal.
  rewrite flat_map_map. apply flat_map_ext. intros; apply IH.
Qed.

Lemma preorder_anc : forall f x y, In y (preorderF f F x) -> ancF F y x.
Proof.
  induction f as [|f IH]; intros x y H.
  - destruct H as [<-|[]]. constructor.
  - rewrite preorderF_unfold in H. destruct H as [<-|H]; [constructor|].
    apply in_flat_map in H. destruct H as (k & Hk & Hy).
    eapply anc_trans; [apply IH; eauto | apply anc_kid; auto].
Qed.

Lemma preorder_root_in : forall f x, In x (preorderF f F x).
Proof. intros [|f] x; left; reflexivity. Qed.

(* [preorderF] and [treeF] run on fuel.  The invariant of the two inductions below: fuel left + depth reached
   covers the number of slots; a node's depth is below that number ([depth_bound]), so the fuel, started at
   the number of slots, is never used up before a leaf. *)
Lemma anc_preorder : forall f x d y, depthF F x d -> length (nodes a) <= f + d -> ancF F y x ->
  In y (preorderF f F x).
Proof.
  induction f as [|f IH]; intros x d y Hd Hf Ha.
  - apply (depth_bound a F HR) in Hd. lia.
  - rewrite preorderF_unfold. destruct (anc_top _ _ _ Ha) as [->|(k & Hk & Hak)]; [now left|].
    right. apply in_flat_map. exists k. split; auto.
    apply (IH k (S d)); auto; [econstructor; eauto | lia].
Qed.

Lemma preorder_NoDup : forall f x, NoDup (preorderF f F x).
Proof.
  induction f as [|f IH]; intros x.
  - repeat constructor. intros [].
  - rewrite preorderF_unfold. constructor.
    + intros Hin. apply in_flat_map in Hin. destruct Hin as (k & Hk & Hy).
      apply preorder_anc in Hy. exact (kid_not_anc a F HR _ _ Hk Hy).
    + apply NoDup_flat_map.
      * apply (r_kids a F HR).
      * intros k _. apply IH.
      * intros k1 k2 z H1 H2 Hz1 Hz2. apply preorder_anc in Hz1, Hz2.
        destruct (anc_linear _ _ Hz1 _ Hz2); [|symmetry]; eapply sib_anc_eq; eauto.
Qed.

Lemma treeF_embeds : forall f x d, depthF F x d -> length (nodes a) <= f + d -> embeds a (treeF f F x).
Proof.
  induction f as [|f IH]; intros x d Hd Hf.
  - apply (depth_bound a F HR) in Hd. lia.
  - rewrite treeF_unfold.
    assert (Lx : live a x) by (eapply depthF_live; eauto).
    destruct (ends_of a F HR x Lx) as (Hfst & Hlst).
    econstructor; [apply at_nd, live_inr, Lx|..]; rewrite ?roots_treeF; auto.
    + apply dseg_chain_from. apply (r_kids a F HR).
    + apply Forall_forall. intros t Ht. apply in_map_iff in Ht. destruct Ht as (k & <- & Hk).
      apply (IH k (S d)); [econstructor; eauto | lia].
Qed.

End WithRepr.

Theorem repr_tree : forall a F x, Repr a F -> live a x ->
  let t := treeF (length (nodes a)) F x in
  tree_in a t /\ root t = x /\ ids t = preorderF (length (nodes a)) F x /\
  (forall y, In y (ids t) -> live a y /\ ancF F y x).
Proof.
  intros a F x HR Lx t. subst t.
  destruct (member_depth a F HR x Lx) as (d & Hd).
  assert (Hall : forall y, In y (ids (treeF (length (nodes a)) F x)) -> live a y /\ ancF F y x).
  { intros y Hy. rewrite ids_treeF in Hy. apply preorder_anc in Hy. split; auto.
    eapply anc_live; eauto. }
  split; [split|split; [|split]]; auto.
  - eapply treeF_embeds; eauto. lia.
  - apply (live_NoDup_idx a).
    + rewrite ids_treeF. now apply (preorder_NoDup a).
    + intros y Hy. apply Hall; auto.
  - apply root_treeF.
  - apply ids_treeF.
Qed.

Theorem repr_descendants : forall a F x, Repr a F -> live a x ->
  descendants x a = Ok (preorderF (length (nodes a)) F x).
Proof.
  intros a F x HR Lx. destruct (repr_tree a F x HR Lx) as (Ht & Hr & Hi & _).
  pose proof (descendants_preorder a _ Ht) as H. now rewrite Hr, Hi in H.
Qed.

Theorem preorder_complete : forall a F x y, Repr a F -> live a x ->
  (In y (preorderF (length (nodes a)) F x) <-> ancF F y x).
Proof.
  intros a F x y HR Lx. split.
  - apply preorder_anc.
  - intros Ha. destruct (member_depth a F HR x Lx) as (d & Hd).
    eapply anc_preorder; eauto. lia.
Qed.

Print Assumptions repr_tree.
Print Assumptions repr_descendants.
Print Assumptions preorder_complete.
